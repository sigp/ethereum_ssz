(** * BitfieldOpsFacts: the byte-level bitfield implementation refines the boolean-sequence
    machine of [BitfieldOps.v], operation by operation and over whole histories.

    Every operation lemma has the same shape: the byte-level function is described by the length
    of its result and by each bit [bit_at (bf_bytes _) j] of it (lemmas of [BitfieldFacts.v] and of
    the sections below), the abstract one by [nth j] of its result, and [R_intro] joins the two. *)
From SSZ Require Import Base BaseFacts LayoutFacts Bitfield Spec BitfieldFacts BitfieldOps.
From Coq Require Import ZArith ZifyN ZifyNat ZifyBool.
Open Scope N_scope.

(* the flavour's length rule *)
Definition len_ok (fl : flavour) (l : N) : Prop :=
  match fl with FList cap => l <= cap | FVec n => l = n | FDyn => 0 < l /\ l mod 8 = 0 end.
(* representation relation between an implementation bitfield and a boolean sequence *)
Definition R (fl : flavour) (b : bf) (bits : list bool) : Prop :=
  Inv b /\ bf_iter b = bits /\ len_ok fl (bf_len b).
(* outcomes of related operations: both succeed with related results, or both report an error *)
Definition resR (fl : flavour) (x : outcome bf) (y : outcome (list bool)) : Prop :=
  match x, y with Ok b, Ok bits => R fl b bits | Err, Err => True | _, _ => False end.

Lemma nth_firstn {A} (l : list A) k i d : nth i (firstn k l) d = if Nat.ltb i k then nth i l d else d.
Proof.
  revert l i. induction k as [|k IH]; intros l i.
  - cbn [firstn]. destruct i; reflexivity.
  - destruct l as [|x r]; cbn [firstn].
    + destruct i; cbn [nth]; destruct (Nat.ltb _ _); reflexivity.
    + destruct i as [|i]; cbn [nth]; [reflexivity|]. rewrite IH.
      change (Nat.ltb (S i) (S k)) with (Nat.ltb i k). reflexivity.
Qed.
Lemma nth_skipn {A} (l : list A) k i d : nth i (skipn k l) d = nth (k + i) l d.
Proof.
  revert l. induction k as [|k IH]; intros l; [reflexivity|].
  destruct l as [|x r]; cbn [skipn Nat.add nth]; [destruct i; reflexivity | apply IH].
Qed.
Lemma forallb_negb_nth (l : list bool) :
  forallb negb l = true <-> forall k, nth k l false = false.
Proof.
  induction l as [|x r IH]; cbn [forallb].
  - split; [intros _ k; destruct k; reflexivity | reflexivity].
  - rewrite Bool.andb_true_iff, IH, Bool.negb_true_iff. split.
    + intros [Hx Hr] k. destruct k; cbn [nth]; [exact Hx | apply Hr].
    + intros H. split; [apply (H 0%nat) | intros k; apply (H (S k))].
Qed.
Lemma nth_set_idx {A} (l : list A) i x k d :
  nth k (set_idx l i x) d = if (Nat.eqb k i && Nat.ltb i (length l))%bool then x else nth k l d.
Proof.
  revert i k. induction l as [|y r IH]; intros i k.
  - cbn [set_idx length]. rewrite Bool.andb_false_r. reflexivity.
  - destruct i as [|i]; cbn [set_idx length].
    + destruct k; cbn [nth]; reflexivity.
    + destruct k as [|k]; cbn [nth]; [reflexivity|]. rewrite IH.
      change (Nat.eqb (S k) (S i)) with (Nat.eqb k i).
      change (Nat.ltb (S i) (S (length r))) with (Nat.ltb i (length r)). reflexivity.
Qed.
Lemma length_set_idx {A} (l : list A) i x : length (set_idx l i x) = length l.
Proof.
  revert i. induction l as [|y r IH]; intros i; [reflexivity|].
  destruct i; cbn [set_idx length]; [reflexivity | rewrite IH; reflexivity].
Qed.
Lemma nth_a_zip f n a o k :
  nth k (a_zip f n a o) false = if Nat.ltb k n then f (bit a k) (bit o k) else false.
Proof. exact (nth_tabulate (fun i => f (bit a i) (bit o i)) n k false). Qed.
Lemma length_a_zip f n a o : length (a_zip f n a o) = n.
Proof. unfold a_zip. rewrite map_length, seq_length. reflexivity. Qed.
Lemma length_zeros n : length (zeros n) = N.to_nat n.
Proof. apply repeat_length. Qed.

Lemma length_byte_bits x : length (byte_bits x) = 8%nat.
Proof. reflexivity. Qed.
Lemma nth_byte_bits x k : nth k (byte_bits x) false = if Nat.ltb k 8 then N.testbit x (N.of_nat k) else false.
Proof. exact (nth_tabulate (fun i => N.testbit x (N.of_nat i)) 8 k false). Qed.
Lemma unpack_cons x r : unpack (x :: r) = byte_bits x ++ unpack r.
Proof. reflexivity. Qed.
Lemma length_unpack bs : length (unpack bs) = (8 * length bs)%nat.
Proof.
  induction bs as [|x r IH]; [reflexivity|].
  rewrite unpack_cons, app_length, IH, length_byte_bits. cbn [length]. lia.
Qed.
Lemma nth_unpack bs k : nth k (unpack bs) false = bit_at bs (N.of_nat k).
Proof.
  revert k. induction bs as [|x r IH]; intros k.
  - cbn. destruct k; reflexivity.
  - rewrite unpack_cons, bit_at_cons. destruct (N.of_nat k <? 8) eqn:E.
    + rewrite app_nth1 by (rewrite length_byte_bits; lia). rewrite nth_byte_bits.
      replace (Nat.ltb k 8) with true by lia. reflexivity.
    + rewrite app_nth2 by (rewrite length_byte_bits; lia). rewrite length_byte_bits, IH.
      f_equal. lia.
Qed.

Lemma R_len fl b bits : R fl b bits -> bf_len b = blen bits.
Proof. intros (HI & <- & _). unfold blen. rewrite bf_iter_length; auto. Qed.
Lemma R_Inv fl b bits : R fl b bits -> Inv b.
Proof. intros H. apply H. Qed.
Lemma R_len_ok fl b bits : R fl b bits -> len_ok fl (bf_len b).
Proof. intros H. apply H. Qed.
Lemma R_bit fl b bits j : R fl b bits -> bit_at (bf_bytes b) j = nth (N.to_nat j) bits false.
Proof. intros (HI & <- & _). rewrite nth_bf_iter by auto. rewrite N2Nat.id. reflexivity. Qed.
Lemma R_bytes_len fl b bits : R fl b bits -> len (bf_bytes b) = bytes_for_bit_len (blen bits).
Proof. intros H. rewrite <- (R_len fl b bits H). apply H. Qed.
Lemma R_intro fl b bits : Inv b -> bf_len b = blen bits -> len_ok fl (bf_len b) ->
  (forall j, j < bf_len b -> bit_at (bf_bytes b) j = nth (N.to_nat j) bits false) -> R fl b bits.
Proof.
  intros HI Hl Hok H. split; [exact HI|]. split; [|exact Hok]. apply bf_iter_eq; auto.
Qed.

Lemma R_zero fl n : len_ok fl n -> R fl (zero_bf n) (repeat false (N.to_nat n)).
Proof.
  intros H. apply R_intro; auto.
  - apply Inv_zero.
  - unfold blen. rewrite repeat_length, N2Nat.id. reflexivity.
  - intros j _. cbn [zero_bf bf_bytes]. rewrite bit_at_zeros, nth_repeat. reflexivity.
Qed.
Lemma bl_with_capacity_ok cap n : n <= cap -> bl_with_capacity cap n = Ok (zero_bf n).
Proof. intros H. unfold bl_with_capacity. replace (n <=? cap) with true by lia. reflexivity. Qed.
Lemma bd_new_ok n : len_ok FDyn n -> bd_new n = Ok (zero_bf n).
Proof.
  intros [H0 H8]. unfold bd_new. replace (n =? 0) with false by lia. rewrite H8. reflexivity.
Qed.

Lemma R_new fl n : match i_new fl n, a_new fl n with
                   | Ok b, Ok bits => R fl b bits | Err, Err => True | _, _ => False end.
Proof.
  destruct fl as [cap|m|]; cbn [i_new a_new].
  - unfold bl_with_capacity. destruct (n <=? cap) eqn:E; [|exact I].
    apply (R_zero (FList cap) n). cbn [len_ok]. lia.
  - apply (R_zero (FVec m) m). reflexivity.
  - unfold bd_new. destruct (n =? 0) eqn:E0; cbn [orb]; [exact I|].
    destruct (negb (n mod 8 =? 0)) eqn:E8; [exact I|].
    apply (R_zero FDyn n). cbn [len_ok]. lia.
Qed.

Lemma R_set fl b bits i v : R fl b bits -> resR fl (bf_set b i v) (a_set bits i v).
Proof.
  intros HR. pose proof (R_len _ _ _ HR) as Hl. unfold a_set. rewrite <- Hl.
  destruct (i <? bf_len b) eqn:E.
  - destruct (bf_set_ok b i v (R_Inv _ _ _ HR) ltac:(lia)) as (b' & -> & HI' & Hl' & Hb').
    unfold blen in Hl. apply R_intro; auto.
    + rewrite Hl', Hl. unfold blen. rewrite length_set_idx. reflexivity.
    + rewrite Hl'. apply HR.
    + intros j Hj. rewrite Hb', nth_set_idx, (R_bit _ _ _ j HR).
      replace (Nat.ltb (N.to_nat i) (length bits)) with true by lia. rewrite Bool.andb_true_r.
      replace (Nat.eqb (N.to_nat j) (N.to_nat i)) with (j =? i) by lia. reflexivity.
  - rewrite bf_set_out by lia. exact I.
Qed.

Lemma range_down_S lo m :
  range_down lo (lo + N.of_nat (S m)) = (lo + N.of_nat m) :: range_down lo (lo + N.of_nat m).
Proof.
  unfold range_down. replace (N.to_nat (lo + N.of_nat (S m) - lo)) with (S m) by lia.
  replace (N.to_nat (lo + N.of_nat m - lo)) with m by lia.
  rewrite seq_S, rev_app_distr. reflexivity.
Qed.
Lemma range_up_S m : range_up 0 (N.of_nat (S m)) = range_up 0 (N.of_nat m) ++ [N.of_nat m].
Proof.
  unfold range_up. replace (N.to_nat (N.of_nat (S m) - 0)) with (S m) by lia.
  replace (N.to_nat (N.of_nat m - 0)) with m by lia.
  rewrite seq_S, map_app. reflexivity.
Qed.

(* first loop, [m] rounds to go: the positions from [n + m] up hold their final bits *)
Lemma shift_loop1 b0 n : Inv b0 ->
  forall m cur, n + N.of_nat m <= bf_len b0 -> Inv cur -> bf_len cur = bf_len b0 ->
    (forall j, bit_at (bf_bytes cur) j =
               if (n + N.of_nat m <=? j) && (j <? bf_len b0) then bit_at (bf_bytes b0) (j - n)
               else bit_at (bf_bytes b0) j) ->
    exists b1, fold_left (fun acc i => do cur <- acc; do x <- bf_get cur (i - n); bf_set cur i x)
                 (range_down n (n + N.of_nat m)) (Ok cur) = Ok b1 /\
               Inv b1 /\ bf_len b1 = bf_len b0 /\
               forall j, bit_at (bf_bytes b1) j =
                         if (n <=? j) && (j <? bf_len b0) then bit_at (bf_bytes b0) (j - n)
                         else bit_at (bf_bytes b0) j.
Proof.
  intros HI0. induction m as [|m IH]; intros cur Hm HIc Hlc Hbits.
  - exists cur. rewrite N.add_0_r in Hbits. unfold range_down. rewrite N.add_0_r, N.sub_diag. auto.
  - rewrite range_down_S. cbn [fold_left bind].
    replace (n + N.of_nat m - n) with (N.of_nat m) by lia.
    rewrite bf_get_bit_at by (auto; lia). cbn [bind].
    destruct (bf_set_ok cur (n + N.of_nat m) (bit_at (bf_bytes cur) (N.of_nat m)) HIc ltac:(lia))
      as (c & -> & HIc' & Hlc' & Hbc').
    apply IH; auto; [lia | congruence |].
    intros j. rewrite Hbc', !Hbits.
    replace ((n + N.of_nat (S m) <=? N.of_nat m) && (N.of_nat m <? bf_len b0)) with false by lia.
    replace ((n + N.of_nat m <=? j) && (j <? bf_len b0))
      with ((j =? n + N.of_nat m) || (n + N.of_nat (S m) <=? j) && (j <? bf_len b0)) by lia.
    destruct (j =? n + N.of_nat m) eqn:E; [|reflexivity]. cbn [orb]. f_equal. lia.
Qed.

(* second loop, after [m] rounds *)
Lemma shift_loop2 b1 : Inv b1 ->
  forall m, N.of_nat m <= bf_len b1 ->
    exists b2, fold_left (fun acc i => do cur <- acc;
                                       match bf_set cur i false with Ok c => Ok c | _ => Panic end)
                 (range_up 0 (N.of_nat m)) (Ok b1) = Ok b2 /\
               Inv b2 /\ bf_len b2 = bf_len b1 /\
               forall j, bit_at (bf_bytes b2) j = if j <? N.of_nat m then false else bit_at (bf_bytes b1) j.
Proof.
  intros HI1. induction m as [|m IH]; intros Hm.
  - exists b1. split; [reflexivity|]. split; [exact HI1|]. split; [reflexivity|].
    intros [|p]; reflexivity.
  - destruct (IH ltac:(lia)) as (c & Hf & HIc & Hlc & Hbc).
    rewrite range_up_S, fold_left_app, Hf. cbn [fold_left bind].
    destruct (bf_set_ok c (N.of_nat m) false HIc ltac:(lia)) as (c' & -> & HIc' & Hlc' & Hbc').
    exists c'. split; [reflexivity|]. split; [exact HIc'|]. split; [congruence|].
    intros j. rewrite Hbc', Hbc.
    replace (j <? N.of_nat (S m)) with ((j =? N.of_nat m) || (j <? N.of_nat m)) by lia.
    destruct (j =? N.of_nat m), (j <? N.of_nat m); reflexivity.
Qed.

Lemma shift_up_spec b n : Inv b -> n <= bf_len b ->
  exists b', shift_up b n = Ok b' /\ Inv b' /\ bf_len b' = bf_len b /\
    forall j, bit_at (bf_bytes b') j =
              if j <? n then false else if j <? bf_len b then bit_at (bf_bytes b) (j - n) else false.
Proof.
  intros HI Hn. unfold shift_up. replace (n <=? bf_len b) with true by lia.
  destruct (shift_loop1 b n HI (N.to_nat (bf_len b - n)) b) as (b1 & H1 & HI1 & Hl1 & Hb1); auto.
  - lia.
  - intros j. replace ((_ <=? j) && (j <? bf_len b)) with false by lia. reflexivity.
  - replace (n + N.of_nat (N.to_nat (bf_len b - n))) with (bf_len b) in H1 by lia.
    rewrite H1. cbn [bind].
    destruct (shift_loop2 b1 HI1 (N.to_nat n) ltac:(lia)) as (b2 & H2 & HI2 & Hl2 & Hb2).
    rewrite N2Nat.id in H2, Hb2.
    rewrite H2. exists b2. split; [reflexivity|]. split; [exact HI2|]. split; [congruence|].
    intros j. rewrite Hb2, Hb1. destruct (j <? n) eqn:E1; [reflexivity|].
    destruct (j <? bf_len b) eqn:E2.
    + replace (n <=? j) with true by lia. reflexivity.
    + rewrite Bool.andb_false_r. destruct HI as (_ & _ & Hz). apply Hz. lia.
Qed.

Lemma R_shift_up fl b bits n : R fl b bits -> resR fl (shift_up b n) (a_shift_up bits n).
Proof.
  intros HR. pose proof (R_len _ _ _ HR) as Hl. unfold a_shift_up. rewrite <- Hl.
  destruct (n <=? bf_len b) eqn:E.
  - destruct (shift_up_spec b n (R_Inv _ _ _ HR) ltac:(lia)) as (b' & Hs & HI' & Hl' & Hb').
    rewrite Hs. unfold blen in Hl. apply R_intro; auto.
    + rewrite Hl', Hl. unfold blen. rewrite app_length, repeat_length, firstn_length. lia.
    + rewrite Hl'. apply HR.
    + intros j Hj. rewrite Hb'. destruct (j <? n) eqn:E1.
      * rewrite app_nth1 by (rewrite repeat_length; lia). rewrite nth_repeat. reflexivity.
      * rewrite app_nth2 by (rewrite repeat_length; lia). rewrite repeat_length, nth_firstn.
        replace (j <? bf_len b) with true by lia.
        replace (Nat.ltb (N.to_nat j - N.to_nat n) (length bits - N.to_nat n)) with true by lia.
        rewrite (R_bit _ _ _ (j - n) HR). f_equal. lia.
  - unfold shift_up. rewrite E. exact I.
Qed.

Lemma bit_at_hd_tl l i :
  bit_at l i = if i <? 8 then N.testbit (hd 0 l) i else bit_at (tl l) (i - 8).
Proof.
  destruct l as [|x r]; cbn [hd tl].
  - rewrite !bit_at_nil, N.bits_0. destruct (i <? 8); reflexivity.
  - apply bit_at_cons.
Qed.
Lemma wfb_hd l : wfb l -> hd 0 l < 256.
Proof. intros H. destruct l; cbn [hd]; [lia | inversion H; auto]. Qed.
Lemma wfb_tl l : wfb l -> wfb (tl l).
Proof. intros H. destruct l; cbn [tl]; [constructor | inversion H; auto]. Qed.

Lemma length_zip f n a o : length (zip_get_or0 f n a o) = n.
Proof.
  revert a o. induction n as [|n IH]; intros a o; cbn [zip_get_or0 length]; [reflexivity|].
  rewrite IH. reflexivity.
Qed.
Lemma wfb_zip f n a o : (forall x y, x < 256 -> y < 256 -> f x y < 256) ->
  wfb a -> wfb o -> wfb (zip_get_or0 f n a o).
Proof.
  intros Hf. revert a o. induction n as [|n IH]; intros a o Ha Ho; cbn [zip_get_or0].
  - constructor.
  - constructor; [apply Hf; apply wfb_hd; auto | apply IH; apply wfb_tl; auto].
Qed.
Lemma bit_at_zip f fb n a o i :
  (forall x y j, N.testbit (f x y) j = fb (N.testbit x j) (N.testbit y j)) ->
  bit_at (zip_get_or0 f n a o) i =
  if i <? 8 * N.of_nat n then fb (bit_at a i) (bit_at o i) else false.
Proof.
  intros Hf. revert a o i. induction n as [|n IH]; intros a o i; cbn [zip_get_or0].
  - rewrite bit_at_nil. replace (i <? 8 * N.of_nat 0) with false by lia. reflexivity.
  - rewrite bit_at_cons, IH, (bit_at_hd_tl a i), (bit_at_hd_tl o i), Hf.
    destruct (i <? 8) eqn:E.
    + replace (i <? 8 * N.of_nat (S n)) with true by lia. reflexivity.
    + replace (i <? 8 * N.of_nat (S n)) with (i - 8 <? 8 * N.of_nat n) by lia. reflexivity.
Qed.
Lemma and_index_zip n a o : (n <= length a)%nat -> (n <= length o)%nat ->
  and_index n a o = Ok (zip_get_or0 N.land n a o).
Proof.
  revert a o. induction n as [|n IH]; intros a o Ha Ho; cbn [and_index zip_get_or0]; [reflexivity|].
  destruct a as [|x ar]; [cbn [length] in Ha; lia|]. destruct o as [|y or]; [cbn [length] in Ho; lia|].
  cbn [length] in Ha, Ho. rewrite IH by lia. reflexivity.
Qed.

Lemma len_diff_bytes a o : len (diff_bytes a o) = len a.
Proof.
  revert o. induction a as [|x r IH]; intros o; [reflexivity|].
  destruct o as [|y s]; cbn [diff_bytes]; [reflexivity|]. rewrite !len_cons, IH. reflexivity.
Qed.
Lemma wfb_diff_bytes a o : wfb a -> wfb (diff_bytes a o).
Proof.
  intros Ha. revert o. induction Ha as [|x r Hx Hr IH]; intros o; [constructor|].
  destruct o as [|y s]; cbn [diff_bytes]; constructor; auto; [apply land_lt_256, Hx | apply IH].
Qed.
Lemma bit_at_diff_bytes a o i :
  bit_at (diff_bytes a o) i = bit_at a i && negb (bit_at o i).
Proof.
  revert o i. induction a as [|x r IH]; intros o i.
  - cbn [diff_bytes]. rewrite bit_at_nil. reflexivity.
  - destruct o as [|y s]; cbn [diff_bytes].
    + rewrite bit_at_nil. cbn [negb]. rewrite Bool.andb_true_r. reflexivity.
    + rewrite !bit_at_cons, IH. destruct (i <? 8) eqn:E; [|reflexivity].
      rewrite N.land_spec, not8_bit by lia. reflexivity.
Qed.

Lemma R_diff fl a abits o obits : R fl a abits -> R fl o obits ->
  R fl (difference_inplace a o) (a_diff abits obits).
Proof.
  intros Ra Ro. pose proof (R_len _ _ _ Ra) as Hla. destruct (R_Inv _ _ _ Ra) as (Hl & Hw & Hz).
  unfold blen in Hla. apply R_intro; unfold difference_inplace; cbn [bf_bytes bf_len].
  - split; [|split]; cbn [bf_bytes bf_len].
    + rewrite len_diff_bytes. exact Hl.
    + apply wfb_diff_bytes, Hw.
    + intros i Hi. rewrite bit_at_diff_bytes, Hz by exact Hi. reflexivity.
  - unfold a_diff, blen. rewrite length_a_zip. exact Hla.
  - apply Ra.
  - intros j Hj. unfold a_diff. rewrite bit_at_diff_bytes, nth_a_zip.
    replace (Nat.ltb (N.to_nat j) (length abits)) with true by lia.
    rewrite (R_bit _ _ _ j Ra), (R_bit _ _ _ j Ro). reflexivity.
Qed.

(** ** union and intersection
    In every flavour the result is a bytewise zip of the operands over the minimal number of bytes
    for some length [L] (the longer operand; for the intersection of bitlists the shorter). *)
Definition zip_bf (f : N -> N -> N) (L : N) (a o : bf) : bf :=
  {| bf_bytes := zip_get_or0 f (length (bf_bytes (zero_bf L))) (bf_bytes a) (bf_bytes o); bf_len := L |}.

Lemma R_zip fl f fb a abits o obits L :
  R fl a abits -> R fl o obits ->
  (forall x y j, N.testbit (f x y) j = fb (N.testbit x j) (N.testbit y j)) ->
  (forall x y, x < 256 -> y < 256 -> f x y < 256) ->
  len_ok fl L ->
  (forall i, L <= i -> fb (bit_at (bf_bytes a) i) (bit_at (bf_bytes o) i) = false) ->
  R fl (zip_bf f L a o) (a_zip fb (N.to_nat L) abits obits).
Proof.
  intros Ra Ro Hf Hw Hok Hz. unfold zip_bf. cbn [zero_bf bf_bytes]. rewrite length_zeros.
  assert (Hbit : forall i, bit_at (zip_get_or0 f (N.to_nat (bytes_for_bit_len L)) (bf_bytes a) (bf_bytes o)) i =
                           if i <? L then fb (bit_at (bf_bytes a) i) (bit_at (bf_bytes o) i) else false).
  { intros i. rewrite (bit_at_zip f fb) by exact Hf. rewrite N2Nat.id.
    destruct (i <? L) eqn:E.
    - replace (i <? 8 * bytes_for_bit_len L) with true by (unfold bytes_for_bit_len; lia). reflexivity.
    - rewrite Hz by lia. destruct (i <? 8 * bytes_for_bit_len L); reflexivity. }
  apply R_intro; cbn [bf_bytes bf_len]; auto.
  - split; [|split]; cbn [bf_bytes bf_len].
    + unfold len. rewrite length_zip. lia.
    + apply wfb_zip; auto; [apply (R_Inv _ _ _ Ra) | apply (R_Inv _ _ _ Ro)].
    + intros i Hi. rewrite Hbit. replace (i <? L) with false by lia. reflexivity.
  - unfold blen. rewrite length_a_zip. lia.
  - intros j Hj. rewrite Hbit, nth_a_zip. replace (j <? L) with true by lia.
    replace (Nat.ltb (N.to_nat j) (N.to_nat L)) with true by lia.
    rewrite (R_bit _ _ _ j Ra), (R_bit _ _ _ j Ro). reflexivity.
Qed.

Lemma len_ok_max fl x y : len_ok fl x -> len_ok fl y -> len_ok fl (N.max x y).
Proof. intros Hx Hy. destruct (N.max_spec x y) as [[_ ->]|[_ ->]]; assumption. Qed.
Lemma len_ok_min fl x y : len_ok fl x -> len_ok fl y -> len_ok fl (N.min x y).
Proof. intros Hx Hy. destruct (N.min_spec x y) as [[_ ->]|[_ ->]]; assumption. Qed.

Lemma i_union_eq fl a o : len_ok fl (bf_len a) -> len_ok fl (bf_len o) ->
  i_union fl a o = Ok (zip_bf N.lor (N.max (bf_len a) (bf_len o)) a o).
Proof.
  intros Ha Ho. pose proof (len_ok_max fl _ _ Ha Ho) as Hm.
  destruct fl as [cap|m|]; cbn [i_union len_ok] in *.
  - unfold bl_union. rewrite bl_with_capacity_ok by exact Hm. reflexivity.
  - rewrite Hm. reflexivity.
  - unfold bd_union, bd_binop. rewrite bd_new_ok by exact Hm. reflexivity.
Qed.
Lemma a_union_eq fl a o la lo : la = blen a -> lo = blen o -> len_ok fl la -> len_ok fl lo ->
  a_union fl a o = Ok (a_zip orb (N.to_nat (N.max la lo)) a o).
Proof.
  unfold blen. intros -> -> Ha Ho. destruct fl as [cap|m|]; cbn [a_union len_ok] in *.
  - do 2 f_equal. lia.
  - rewrite Ha, Ho, N.max_id. reflexivity.
  - do 2 f_equal. clear. lia.
Qed.

Lemma R_union fl a abits o obits : R fl a abits -> R fl o obits ->
  match i_union fl a o, a_union fl abits obits with Ok r, Ok rbits => R fl r rbits | _, _ => False end.
Proof.
  intros Ra Ro. pose proof (R_len_ok _ _ _ Ra) as Hoka. pose proof (R_len_ok _ _ _ Ro) as Hoko.
  rewrite i_union_eq, (a_union_eq fl abits obits _ _ (R_len _ _ _ Ra) (R_len _ _ _ Ro)) by assumption.
  apply (R_zip fl N.lor orb); auto using N.lor_spec, lor_lt_256, len_ok_max.
  intros i Hi. rewrite !Inv_above by (eauto using R_Inv; lia). reflexivity.
Qed.

Definition inter_len (fl : flavour) (x y : N) : N :=
  match fl with FDyn => N.max x y | _ => N.min x y end.
Lemma len_ok_inter fl x y : len_ok fl x -> len_ok fl y -> len_ok fl (inter_len fl x y).
Proof. destruct fl; [apply len_ok_min | apply len_ok_min | apply len_ok_max]. Qed.

Lemma bfbl_mono a b : a <= b -> bytes_for_bit_len a <= bytes_for_bit_len b.
Proof. unfold bytes_for_bit_len. lia. Qed.
Lemma bfbl_dyn l : len_ok FDyn l -> bytes_for_bit_len l * 8 = l /\ bytes_for_bit_len l <> 0.
Proof. intros [H0 H8]. unfold bytes_for_bit_len. lia. Qed.
(* the indexing loop stays inside both operands when the result is no longer than either *)
Lemma and_index_bf L a o : Inv a -> Inv o -> L <= bf_len a -> L <= bf_len o ->
  and_index (length (bf_bytes (zero_bf L))) (bf_bytes a) (bf_bytes o) = Ok (bf_bytes (zip_bf N.land L a o)).
Proof.
  intros (Ha & _) (Ho & _) Hla Hlo. apply bfbl_mono in Hla, Hlo. unfold len in Ha, Ho.
  apply and_index_zip; cbn [zero_bf bf_bytes]; rewrite length_zeros; lia.
Qed.

Lemma i_inter_eq fl a o : Inv a -> Inv o -> len_ok fl (bf_len a) -> len_ok fl (bf_len o) ->
  i_inter fl a o = Ok (zip_bf N.land (inter_len fl (bf_len a) (bf_len o)) a o).
Proof.
  intros HIa HIo Ha Ho. pose proof (len_ok_inter fl _ _ Ha Ho) as Hm.
  destruct fl as [cap|m|]; cbn [i_inter inter_len len_ok] in *.
  - unfold bl_intersection. rewrite bl_with_capacity_ok by exact Hm.
    rewrite (and_index_bf _ a o HIa HIo (N.le_min_l _ _) (N.le_min_r _ _)). reflexivity.
  - unfold bv_intersection. change (bv_new m) with (zero_bf m). rewrite Hm.
    rewrite (and_index_bf m a o HIa HIo); [reflexivity | rewrite Ha | rewrite Ho]; reflexivity.
  - unfold bd_intersection, bd_binop. rewrite bd_new_ok by exact Hm. reflexivity.
Qed.
Lemma a_inter_eq fl a o la lo : la = blen a -> lo = blen o -> len_ok fl la -> len_ok fl lo ->
  a_inter fl a o = Ok (a_zip andb (N.to_nat (inter_len fl la lo)) a o).
Proof.
  unfold blen. intros -> -> Ha Ho. destruct fl as [cap|m|]; cbn [a_inter inter_len len_ok] in *.
  - do 2 f_equal. lia.
  - rewrite Ha, Ho, N.min_id. reflexivity.
  - do 2 f_equal. clear. lia.
Qed.

Lemma R_inter fl a abits o obits : R fl a abits -> R fl o obits ->
  match i_inter fl a o, a_inter fl abits obits with Ok r, Ok rbits => R fl r rbits | _, _ => False end.
Proof.
  intros Ra Ro. pose proof (R_len_ok _ _ _ Ra) as Hoka. pose proof (R_len_ok _ _ _ Ro) as Hoko.
  pose proof (R_Inv _ _ _ Ra) as HIa. pose proof (R_Inv _ _ _ Ro) as HIo.
  rewrite i_inter_eq, (a_inter_eq fl abits obits _ _ (R_len _ _ _ Ra) (R_len _ _ _ Ro)) by assumption.
  apply (R_zip fl N.land andb); auto using N.land_spec, len_ok_inter.
  - intros x y Hx _. apply land_lt_256, Hx.
  - (* at or beyond the result length one of the operands has no bit *)
    intros i Hi. destruct (N.le_gt_cases (bf_len a) i) as [H|H].
    + rewrite (Inv_above a) by assumption. reflexivity.
    + rewrite (Inv_above o), Bool.andb_false_r; [reflexivity | assumption |].
      destruct fl; cbn [inter_len] in Hi; lia.
Qed.

Lemma R_unpack fl b bits : R fl b bits ->
  exists pad, unpack (bf_bytes b) = bits ++ pad /\ forallb negb pad = true.
Proof.
  intros HR. pose proof (R_bytes_len _ _ _ HR) as Hlen. unfold len, blen, bytes_for_bit_len in Hlen.
  exists (skipn (length bits) (unpack (bf_bytes b))). split.
  - rewrite <- (firstn_skipn (length bits) (unpack (bf_bytes b))) at 1. f_equal.
    apply nth_ext with (d := false) (d' := false); rewrite firstn_length, length_unpack; [lia|].
    intros k Hk. rewrite nth_firstn. replace (Nat.ltb k (length bits)) with true by lia.
    rewrite nth_unpack, (R_bit _ _ _ _ HR), Nat2N.id. reflexivity.
  - apply forallb_negb_nth. intros k. rewrite nth_skipn, nth_unpack.
    apply Inv_above; [apply HR|]. rewrite (R_len _ _ _ HR). unfold blen. lia.
Qed.
Lemma count_true_app a b : count_true (a ++ b) = count_true a + count_true b.
Proof. unfold count_true. rewrite map_app, sumN_app. reflexivity. Qed.
Lemma count_true_zero l : forallb negb l = true -> count_true l = 0.
Proof.
  induction l as [|x r IH]; [reflexivity|]. cbn [forallb]. intros H.
  apply Bool.andb_true_iff in H. destruct H as [Hx Hr]. destruct x; [discriminate|].
  unfold count_true in *. cbn [map sumN]. rewrite IH by exact Hr. reflexivity.
Qed.
(* [count_ones] by halving is the number of set binary digits *)
Lemma popcount_bits f b :
  popcount_fuel f b = count_true (map (fun k => N.testbit b (N.of_nat k)) (seq 0 f)).
Proof.
  revert b. induction f as [|f IH]; intros b; [reflexivity|].
  cbn [popcount_fuel seq map]. rewrite <- seq_shift, map_map, IH. unfold count_true. cbn [map sumN].
  f_equal.
  - change (N.of_nat 0) with 0. rewrite <- N.bit0_mod. destruct (N.testbit b 0); reflexivity.
  - do 2 f_equal. apply map_ext. intros k. rewrite Nat2N.inj_succ. apply N.div2_bits.
Qed.
Lemma count_unpack bs : sumN (map count_ones8 bs) = count_true (unpack bs).
Proof.
  induction bs as [|x r IH]; [reflexivity|].
  rewrite unpack_cons, count_true_app. cbn [map sumN]. rewrite IH. f_equal. apply popcount_bits.
Qed.
Lemma zero_byte_bits x : x < 256 -> (x =? 0) = forallb negb (byte_bits x).
Proof.
  intros Hx. apply Bool.eq_true_iff_eq. rewrite N.eqb_eq, forallb_negb_nth. split.
  - intros -> k. rewrite nth_byte_bits. destruct (Nat.ltb k 8); reflexivity.
  - intros H. apply byte_ext; [exact Hx | reflexivity |]. intros j Hj.
    specialize (H (N.to_nat j)). rewrite nth_byte_bits, N2Nat.id in H.
    replace (Nat.ltb (N.to_nat j) 8) with true in H by lia. rewrite H. reflexivity.
Qed.
Lemma zero_unpack bs : wfb bs -> forallb (fun x => x =? 0) bs = forallb negb (unpack bs).
Proof.
  induction 1 as [|x r Hx Hr IH]; [reflexivity|].
  rewrite unpack_cons, forallb_app. cbn [forallb]. rewrite IH, zero_byte_bits by exact Hx.
  reflexivity.
Qed.

Lemma a_hsb_go_shift bits i acc :
  a_hsb_go bits i acc = match a_hsb bits with Some l => Some (i + l) | None => acc end.
Proof.
  unfold a_hsb. revert i acc. induction bits as [|x r IH]; intros i acc; cbn [a_hsb_go]; [reflexivity|].
  rewrite (IH (i + 1)), (IH (0 + 1)). destruct (a_hsb_go r 0 None); [f_equal; lia|].
  destruct x; [f_equal; lia | reflexivity].
Qed.
Lemma a_hsb_spec bits :
  match a_hsb bits with
  | Some l => nth (N.to_nat l) bits false = true /\ forall j, (N.to_nat l < j)%nat -> nth j bits false = false
  | None => forall j, nth j bits false = false
  end.
Proof.
  induction bits as [|x r IH]; [intros [|j]; reflexivity|].
  unfold a_hsb. cbn [a_hsb_go]. rewrite a_hsb_go_shift. destruct (a_hsb r) as [l|].
  - destruct IH as [Ht Ha]. replace (N.to_nat (0 + 1 + l)) with (S (N.to_nat l)) by lia.
    split; [exact Ht|]. intros [|j] Hj; [lia|]. apply Ha. lia.
  - destruct x.
    + split; [reflexivity|]. intros [|j] Hj; [inversion Hj | apply IH].
    + intros [|j]; [reflexivity | apply IH].
Qed.

Lemma R_hsb fl b bits : R fl b bits -> highest_set_bit b = a_hsb bits.
Proof.
  intros HR. pose proof (R_Inv _ _ _ HR) as (_ & Hw & _). pose proof (a_hsb_spec bits) as S.
  pose proof (fun j => R_bit fl b bits j HR) as Hb. destruct b as [bs n]. cbn [bf_bytes] in *.
  destruct (a_hsb bits) as [l|].
  - destruct S as [Ht Ha]. apply hsb_unique; [exact Hw|]. split; [rewrite Hb; exact Ht|].
    intros j Hj. rewrite Hb. apply Ha. lia.
  - destruct (highest_set_bit _) as [l|] eqn:E; [|reflexivity].
    apply hsb_some in E as (Ht & _); [|exact Hw]. rewrite Hb, S in Ht. discriminate.
Qed.

Lemma R_pack fl b bits k : R fl b bits -> bytes_for_bit_len (blen bits) = N.of_nat k ->
  bf_bytes b = spec_pack bits k.
Proof.
  intros HR Hk. rewrite <- (R_bytes_len _ _ _ HR) in Hk. apply Nat2N.inj in Hk. subst k.
  apply pack_of_bytes; [apply HR | intros i _; apply (R_bit _ _ _ i HR)].
Qed.

Lemma R_slice fl b bits : R fl b bits -> bf_bytes b = a_slice bits.
Proof. intros HR. apply (R_pack fl b bits _ HR). symmetry. apply N2Nat.id. Qed.

Lemma R_ssz fl b bits : R fl b bits -> i_ssz fl b = a_ssz fl bits.
Proof.
  intros HR. pose proof (R_len _ _ _ HR) as Hl. pose proof (R_len_ok _ _ _ HR) as Hok.
  rewrite Hl in Hok. unfold blen in *.
  destruct fl as [cap|m|]; cbn [i_ssz a_ssz len_ok] in *.
  - (* the bytes are those of a bitfield that holds [bits ++ [true]] *)
    destruct (bl_into_bytes_spec b (R_Inv _ _ _ HR)) as (b2 & -> & ((Hlen2 & Hw2 & _) & Hl2 & Hb2)).
    etransitivity; [apply (pack_of_bytes (bits ++ [true])); auto|].
    + intros i _. rewrite Hb2, (R_bit _ _ _ i HR), Hl.
      destruct (N.compare_spec i (N.of_nat (length bits))) as [->|H|H].
      * rewrite N.eqb_refl, Nat2N.id, nth_middle. reflexivity.
      * replace (i =? _) with false by lia. rewrite app_nth1 by lia. reflexivity.
      * replace (i =? _) with false by lia. rewrite !nth_overflow; [reflexivity| |lia].
        rewrite app_length. cbn [length]. lia.
    + unfold spec_bitlist. f_equal. rewrite Hl2, Hl in Hlen2. clear - Hlen2.
      unfold len, bytes_for_bit_len in Hlen2. lia.
  - apply (R_pack (FVec m) b bits _ HR). clear. unfold blen, bytes_for_bit_len. lia.
  - apply (R_pack FDyn b bits _ HR). clear - Hok. unfold blen, bytes_for_bit_len. lia.
Qed.

Lemma R_observe fl b bits : R fl b bits ->
  num_set_bits b = count_true bits /\ highest_set_bit b = a_hsb bits /\ is_zero b = forallb negb bits /\
  bf_bytes b = a_slice bits /\ i_ssz fl b = a_ssz fl bits /\ bf_hash_stream b = len (a_slice bits) :: a_slice bits ++ [blen bits].
Proof.
  intros HR. pose proof (R_Inv _ _ _ HR) as (_ & Hw & _).
  destruct (R_unpack _ _ _ HR) as (pad & Hu & Hpad).
  split; [|split; [|split; [|split; [|split]]]].
  - unfold num_set_bits. rewrite count_unpack, Hu, count_true_app, (count_true_zero pad) by auto. lia.
  - apply (R_hsb _ _ _ HR).
  - unfold is_zero. rewrite zero_unpack, Hu, forallb_app, Hpad by auto. apply Bool.andb_true_r.
  - apply (R_slice _ _ _ HR).
  - apply (R_ssz _ _ _ HR).
  - unfold bf_hash_stream. rewrite <- (R_slice _ _ _ HR), (R_len _ _ _ HR). reflexivity.
Qed.

Lemma R_subset fl a abits o obits : R fl a abits -> R fl o obits ->
  bf_is_subset a o = forallb negb (a_diff abits obits).
Proof.
  intros Ra Ro. unfold bf_is_subset, difference.
  apply (R_observe fl (difference_inplace a o) (a_diff abits obits)). apply R_diff; auto.
Qed.

Lemma bytes_eqb_eq a b : bytes_eqb a b = true <-> a = b.
Proof.
  revert b. induction a as [|x r IH]; intros [|y s]; cbn [bytes_eqb]; split; try congruence; try discriminate.
  - intros H. apply Bool.andb_true_iff in H. destruct H as [H1 H2]. apply IH in H2. f_equal; [lia|exact H2].
  - intros [= -> ->]. rewrite N.eqb_refl. apply IH. reflexivity.
Qed.
Lemma bits_eqb_eq a b : bits_eqb a b = true <-> a = b.
Proof.
  revert b. induction a as [|x r IH]; intros [|y s]; cbn [bits_eqb]; split; try congruence; try discriminate.
  - intros H. apply Bool.andb_true_iff in H. destruct H as [H1 H2]. apply IH in H2.
    apply Bool.eqb_prop in H1. congruence.
  - intros [= -> ->]. rewrite Bool.eqb_reflx. apply IH. reflexivity.
Qed.
Lemma bf_eqb_eq a o : bf_eqb a o = true <-> a = o.
Proof.
  unfold bf_eqb. rewrite Bool.andb_true_iff, N.eqb_eq, bytes_eqb_eq. destruct a as [ba la], o as [bo lo]; cbn [bf_bytes bf_len].
  split; [intros [-> ->]; reflexivity | intros [= -> ->]; auto].
Qed.
Lemma R_inj fl a o bits : R fl a bits -> R fl o bits -> a = o.
Proof.
  intros Ra Ro. apply Inv_ext; [apply Ra | apply Ro | |].
  - rewrite (R_len _ _ _ Ra), (R_len _ _ _ Ro). reflexivity.
  - intros i _. rewrite (R_bit _ _ _ i Ra), (R_bit _ _ _ i Ro). reflexivity.
Qed.
Lemma R_eqb fl a abits o obits : R fl a abits -> R fl o obits -> bf_eqb a o = bits_eqb abits obits.
Proof.
  intros Ra Ro. apply Bool.eq_true_iff_eq. rewrite bits_eqb_eq, bf_eqb_eq. split; intros <-.
  - destruct Ra as (_ & <- & _). apply Ro.
  - apply (R_inj fl a o abits Ra Ro).
Qed.

Lemma R_firstn_unpack fl b bs : Inv b -> len_ok fl (bf_len b) -> bf_len b <= 8 * len bs ->
  (forall j, j < bf_len b -> bit_at (bf_bytes b) j = bit_at bs j) ->
  R fl b (firstn (N.to_nat (bf_len b)) (unpack bs)).
Proof.
  intros HI Hok Hle Hb. unfold len in Hle. apply R_intro; auto.
  - unfold blen. rewrite firstn_length, length_unpack. lia.
  - intros j Hj. rewrite Hb by exact Hj. rewrite nth_firstn, nth_unpack, N2Nat.id.
    replace (Nat.ltb (N.to_nat j) (N.to_nat (bf_len b))) with true by lia. reflexivity.
Qed.

Lemma tail_zero bs n :
  forallb negb (skipn n (unpack bs)) = true <-> (forall i, N.of_nat n <= i -> bit_at bs i = false).
Proof.
  rewrite forallb_negb_nth. split.
  - intros H i Hi. specialize (H (N.to_nat i - n)%nat). rewrite nth_skipn, nth_unpack in H.
    rewrite <- H. f_equal. lia.
  - intros H k. rewrite nth_skipn, nth_unpack. apply H. lia.
Qed.

Lemma R_decode_list cap bs : wfb bs ->
  resR (FList cap) (bl_from_bytes cap bs) (a_decode (FList cap) bs).
Proof.
  intros Hw. pose proof (bitlist_no_panic cap bs Hw) as Hnp. cbn [a_decode].
  destruct (rev bs) as [|last t] eqn:Er.
  - apply rev_nil_inv in Er. subst bs. exact I.
  - apply rev_cons_inv in Er. subst bs. set (pre := rev t) in *.
    assert (Hlen : len (pre ++ [last]) = len pre + 1) by (rewrite len_app; reflexivity).
    assert (Hlast : last < 256) by (apply wfb_app in Hw as [_ Hl]; inversion Hl; assumption).
    rewrite Hlen, N.add_sub.
    (* the top bit of the input when its last byte is not zero *)
    pose proof (fun H => top_bit_snoc pre last Hlast H) as Htop.
    destruct (bl_from_bytes cap (pre ++ [last])) as [b| |] eqn:Ei; [| |congruence].
    + (* accepted: the length found is the top bit, which lies in the last byte *)
      destruct (bl_from_bytes_elim _ _ b Hw Ei) as (l & Hl & Hcap & Ht & HI & Hbl & Hbits).
      rewrite Hlen in Hl. destruct (N.eqb_spec last 0) as [->|Hne].
      * destruct Ht as [Ht _]. rewrite bit_at_snoc0, bit_at_out in Ht by lia. discriminate.
      * rewrite <- (top_bit_unique _ _ _ Ht (Htop ltac:(lia))).
        replace (l <=? cap) with true by lia. apply top_bit_lt in Ht. subst l.
        apply R_firstn_unpack; [exact HI | exact Hcap | lia | exact Hbits].
    + (* rejected: otherwise [bl_from_bytes_intro] applies to the top bit *)
      destruct (last =? 0) eqn:E0; [exact I|]. destruct (_ <=? cap) eqn:Ec; [|exact I].
      destruct (byte_log2 last Hlast ltac:(lia)) as (Hlg & _).
      destruct (bl_from_bytes_intro cap _ (8 * len pre + N.log2 last) Hw ltac:(lia) ltac:(lia) (Htop ltac:(lia))) as (b & Hb & _).
      congruence.
Qed.

Lemma R_decode_vec n bs : wfb bs ->
  resR (FVec n) (bv_from_bytes n bs) (a_decode (FVec n) bs).
Proof.
  intros Hw. cbn [a_decode]. unfold bv_from_bytes.
  pose proof (from_raw_bytes_no_panic bs n) as Hnp.
  destruct ((len bs =? bytes_for_bit_len n) && forallb negb (skipn (N.to_nat n) (unpack bs))) eqn:Ec.
  - apply Bool.andb_true_iff in Ec. destruct Ec as [E1 E2]. rewrite tail_zero, N2Nat.id in E2.
    rewrite from_raw_intro by (auto; lia).
    apply (R_firstn_unpack (FVec n) {| bf_bytes := bs; bf_len := n |} bs); cbn [bf_bytes bf_len]; auto.
    + split; [|split]; cbn [bf_bytes bf_len]; auto. lia.
    + reflexivity.
    + unfold bytes_for_bit_len in E1. lia.
  - destruct (from_raw_bytes bs n) as [b| |] eqn:Ef; [|exact I|congruence].
    destruct (from_raw_elim bs n b Hw Ef) as (_ & Hl & Hz).
    assert (forallb negb (skipn (N.to_nat n) (unpack bs)) = true) as E2.
    { apply tail_zero. rewrite N2Nat.id. exact Hz. }
    rewrite E2 in Ec. lia.
Qed.

Lemma R_decode_dyn bs : wfb bs ->
  resR FDyn (bd_decode bs) (a_decode FDyn bs).
Proof.
  intros Hw. destruct (nil_or_not bs) as [->|Hne]; [exact I|].
  assert (Ha : a_decode FDyn bs = Ok (unpack bs)) by (destruct bs; [congruence|reflexivity]).
  rewrite Ha, bd_decode_eq, from_raw_full by auto.
  pose proof (len_pos bs Hne) as Hp.
  rewrite <- (firstn_all2 (n := N.to_nat (len bs * 8)) (unpack bs))
    by (rewrite length_unpack; unfold len; lia).
  apply (R_firstn_unpack FDyn {| bf_bytes := bs; bf_len := len bs * 8 |} bs); cbn [bf_bytes bf_len]; auto.
  - apply Inv_full; auto.
  - cbn [len_ok]. lia.
  - lia.
Qed.

Lemma R_decode fl bs : wfb bs ->
  match i_decode fl bs, a_decode fl bs with Ok b, Ok bits => R fl b bits | Err, Err => True | _, _ => False end.
Proof.
  intros Hw. destruct fl as [cap|n|]; cbn [i_decode].
  - apply R_decode_list, Hw.
  - apply R_decode_vec, Hw.
  - apply R_decode_dyn, Hw.
Qed.

Definition ops_wfb (ops : list bop) : Prop :=
  Forall (fun o => match o with ODecode _ bs => wfb bs | _ => True end) ops.

Definition oR (fl : flavour) (x : option bf) (y : option (list bool)) : Prop :=
  match x, y with Some b, Some bits => R fl b bits | None, None => True | _, _ => False end.
Definition RR (fl : flavour) (rs : regs bf) (rs' : regs (list bool)) : Prop := Forall2 (oR fl) rs rs'.

Lemma RR_get fl rs rs' r : RR fl rs rs' -> oR fl (reg_get rs r) (reg_get rs' r).
Proof.
  intros H. unfold reg_get. generalize (Nat.modulo r 4).
  induction H as [|x y l l' Hxy _ IH]; intros [|k]; cbn [nth]; auto; exact I.
Qed.
Lemma RR_set fl rs rs' r x y : RR fl rs rs' -> oR fl x y -> RR fl (reg_set rs r x) (reg_set rs' r y).
Proof.
  intros H Hxy. unfold reg_set. generalize (Nat.modulo r 4).
  induction H as [|x0 y0 l l' Hxy0 Hl IH]; intros [|k]; cbn [set_idx]; constructor; auto. apply IH.
Qed.
Lemma RR_empty fl : RR fl empty_regs empty_regs.
Proof. repeat constructor. Qed.

(* what [i_step] and [a_step] do with the outcome of an operation (their local [upd]) *)
Definition upd {A} (rs : regs A) (r : nat) (res : outcome A) : regs A * N * option bool :=
  match res with
  | Ok b => (reg_set rs r (Some b), 0, None)
  | Err => (rs, 1, None)
  | Panic => (rs, 2, None)
  end.
Definition stepR (fl : flavour) (x : regs bf * N * option bool) (y : regs (list bool) * N * option bool) : Prop :=
  RR fl (fst (fst x)) (fst (fst y)) /\ snd (fst x) = snd (fst y) /\ snd x = snd y.

Lemma upd_R fl rs rs' r res res' : RR fl rs rs' -> resR fl res res' ->
  stepR fl (upd rs r res) (upd rs' r res').
Proof.
  intros H Hres. destruct res as [b| |], res' as [bits| |]; try contradiction;
    (split; [|split; reflexivity]); [apply RR_set; assumption | exact H].
Qed.
(* an operation that reads register [r] and has nothing to act on when it is empty *)
Lemma reg_R fl rs rs' r F G : RR fl rs rs' ->
  (forall b bits, R fl b bits -> stepR fl (F b) (G bits)) ->
  stepR fl (match reg_get rs r with Some b => F b | None => (rs, 1, None) end)
           (match reg_get rs' r with Some bits => G bits | None => (rs', 1, None) end).
Proof.
  intros H HF. pose proof (RR_get fl rs rs' r H) as Hr.
  destruct (reg_get rs r), (reg_get rs' r); try contradiction; [apply HF, Hr|].
  split; [exact H | split; reflexivity].
Qed.
Lemma resR_strong fl x y :
  match x, y with Ok r, Ok rbits => R fl r rbits | _, _ => False end -> resR fl x y.
Proof. destruct x, y; cbn [resR]; auto. Qed.

Lemma step_R fl rs rs' o : RR fl rs rs' ->
  match o with ODecode _ bs => wfb bs | _ => True end ->
  stepR fl (i_step fl rs o) (a_step fl rs' o).
Proof.
  intros H Hw.
  destruct o as [r n|r i v|r n|r s|r s|r bs|r a b|r a b|r a b|r a b]; cbn [i_step a_step];
    repeat (apply reg_R; [exact H|]; intros ? ? ?).
  - apply (upd_R fl rs rs' r _ _ H), R_new.
  - apply (upd_R fl rs rs' r _ _ H), R_set. assumption.
  - apply (upd_R fl rs rs' r _ _ H), R_shift_up. assumption.
  - apply (upd_R fl rs rs' r (Ok _) (Ok _) H), R_diff; assumption.
  - apply (upd_R fl rs rs' r (Ok _) (Ok _) H). assumption.
  - apply (upd_R fl rs rs' r _ _ H), R_decode, Hw.
  - apply (upd_R fl rs rs' r _ _ H), resR_strong, R_union; assumption.
  - apply (upd_R fl rs rs' r _ _ H), resR_strong, R_inter; assumption.
  - apply (upd_R fl rs rs' r (Ok _) (Ok _) H), R_diff; assumption.
  - split; [exact H|]. split; [reflexivity|]. cbn [snd]. f_equal. apply (R_subset fl); assumption.
Qed.

Lemma eq_map_R fl rs rs' b bits : RR fl rs rs' -> R fl b bits ->
  map (fun x => match x with Some c => bf_eqb b c | None => false end) rs =
  map (fun x => match x with Some c => bits_eqb bits c | None => false end) rs'.
Proof.
  intros H Hb. induction H as [|x y r r' Hxy _ IH]; [reflexivity|]. cbn [map]. f_equal; [|exact IH].
  destruct x as [c|], y as [cb|]; try contradiction; [|reflexivity].
  apply (R_eqb fl); auto.
Qed.

Lemma observe_R fl rs rs' r st sub : RR fl rs rs' ->
  i_observe fl rs r st sub = a_observe fl rs' r st sub.
Proof.
  intros H. unfold i_observe, a_observe. pose proof (RR_get fl rs rs' r H) as Hr.
  destruct (reg_get rs r) as [b|], (reg_get rs' r) as [bits|]; try contradiction; [|reflexivity].
  destruct (R_observe fl b bits Hr) as (H1 & H2 & H3 & H4 & H5 & H6).
  rewrite H1, H2, H3, H4, H5, H6, (R_len _ _ _ Hr), (eq_map_R fl rs rs' b bits H Hr).
  destruct Hr as (_ & -> & _). reflexivity.
Qed.

(** in every reachable state the exposed byte view is minimal and has no bit at or beyond
    [len], and the length rule of the flavour holds *)
Definition obs_ok (fl : flavour) (o : obs) : Prop :=
  o_present o = true ->
  len (o_slice o) = bytes_for_bit_len (o_len o) /\ wfb (o_slice o) /\
  (forall i, o_len o <= i -> bit_at (o_slice o) i = false) /\ len_ok fl (o_len o).

Lemma observe_ok fl rs rs' r st sub : RR fl rs rs' -> obs_ok fl (i_observe fl rs r st sub).
Proof.
  intros H. unfold i_observe, obs_ok. pose proof (RR_get fl rs rs' r H) as Hr.
  destruct (reg_get rs r) as [b|], (reg_get rs' r) as [bits|]; try contradiction.
  - cbn [o_present o_slice o_len]. intros _. destruct Hr as ((H1 & H2 & H3) & _ & H4). auto.
  - cbn [no_obs o_present]. discriminate.
Qed.

Lemma run_R fl ops : ops_wfb ops -> forall rs rs', RR fl rs rs' ->
  i_run fl rs ops = a_run fl rs' ops /\ Forall (obs_ok fl) (i_run fl rs ops).
Proof.
  induction 1 as [|o ops Ho _ IH]; intros rs rs' H; [split; [reflexivity | constructor]|].
  cbn [i_run a_run]. pose proof (step_R fl rs rs' o H Ho) as HS.
  destruct (i_step fl rs o) as [[rs1 st1] sub1], (a_step fl rs' o) as [[rs2 st2] sub2].
  destruct HS as (HR & Hst & Hsub). cbn [fst snd] in HR, Hst, Hsub. subst st2 sub2.
  destruct (IH rs1 rs2 HR) as [IH1 IH2]. split.
  - f_equal; [apply observe_R, HR | exact IH1].
  - constructor; [apply (observe_ok fl rs1 rs2), HR | exact IH2].
Qed.

Theorem run_refines fl ops : ops_wfb ops -> run_impl fl ops = run_abs fl ops.
Proof. intros H. apply (run_R fl ops H), RR_empty. Qed.

Theorem reachable_inv fl ops : ops_wfb ops ->
  Forall (fun o => o_present o = true ->
                   len (o_slice o) = bytes_for_bit_len (o_len o) /\ wfb (o_slice o) /\
                   (forall i, o_len o <= i -> bit_at (o_slice o) i = false) /\ len_ok fl (o_len o))
         (run_impl fl ops).
Proof. intros H. apply (run_R fl ops H empty_regs empty_regs), RR_empty. Qed.

Theorem failed_step_unchanged fl rs o : snd (fst (i_step fl rs o)) <> 0 -> fst (fst (i_step fl rs o)) = rs.
Proof.
  (* the registers change only where [upd] meets an [Ok], and there the status is 0 *)
  assert (U : forall r res, snd (fst (upd rs r res)) <> 0 -> fst (fst (upd rs r res)) = rs).
  { intros r [b| |]; cbn [upd fst snd]; [congruence | reflexivity | reflexivity]. }
  destruct o; cbn [i_step]; repeat destruct (reg_get rs _); try apply U;
    intros H; (reflexivity || (exfalso; apply H; reflexivity)).
Qed.

Theorem resize_refines n m b bits : R (FList n) b bits ->
  match bl_resize n m b, a_resize n m bits with
  | Ok r, Ok rbits => R (FList m) r rbits | Err, Err => True | _, _ => False end.
Proof.
  intros HR. pose proof (R_len _ _ _ HR) as Hl. pose proof (R_len_ok _ _ _ HR) as Hok.
  unfold blen in Hl. cbn [len_ok] in Hok. unfold bl_resize, a_resize.
  destruct (m <? n) eqn:E; [exact I|]. rewrite bl_with_capacity_ok by lia. cbn [bind].
  destruct HR as (HI & -> & _).
  destruct (set_all_spec bits (zero_bf m) 0 (Inv_zero m)) as (r & -> & H2 & H3 & H4).
  { cbn [zero_bf bf_len]. lia. }
  cbn [zero_bf bf_len bf_bytes] in H3, H4. apply R_intro; auto.
  - rewrite H3. unfold blen. rewrite app_length, repeat_length. lia.
  - rewrite H3. cbn [len_ok]. lia.
  - intros j Hj. rewrite H4, bit_at_zeros.
    destruct ((0 <=? j) && (j <? 0 + N.of_nat (length bits))) eqn:E2.
    + rewrite app_nth1 by lia. f_equal. lia.
    + rewrite app_nth2 by lia. rewrite nth_repeat. reflexivity.
Qed.

Theorem from_bytes_with_len_refines bs l : wfb bs ->
  match bd_from_bytes_with_len bs l, a_from_bytes_with_len bs l with
  | Ok b, Ok bits => R FDyn b bits | Err, Err => True | _, _ => False end.
Proof.
  intros Hw. unfold bd_from_bytes_with_len, a_from_bytes_with_len.
  destruct (l =? 8 * len bs) eqn:E.
  - replace (negb (l =? len bs * 8)) with false by lia. replace l with (len bs * 8) by lia.
    destruct (nil_or_not bs) as [->|Hne]; [vm_compute; exact I|].
    rewrite <- bd_decode_eq by exact Hne. apply R_decode_dyn, Hw.
  - replace (negb (l =? len bs * 8)) with true by lia. exact I.
Qed.

Theorem dyn_into_bytes b bits : R FDyn b bits -> bd_into_bytes b = a_ssz FDyn bits.
Proof. intros H. apply (R_ssz FDyn b bits H). Qed.

(* decoding the SSZ encoding of a bitfield gives back the very same representation (C18, C20) *)
Theorem decode_ssz_round_trip fl b bits : R fl b bits ->
  wfb (i_ssz fl b) /\ i_decode fl (i_ssz fl b) = Ok b.
Proof.
  intros HR. pose proof (R_Inv _ _ _ HR) as HI. pose proof HI as (Hlen & Hw & Hz).
  pose proof (R_len_ok _ _ _ HR) as Hok.
  destruct fl as [cap|m|]; cbn [i_ssz i_decode len_ok] in *.
  - (* the encoding holds the bits and the length bit, which is its top bit *)
    destruct (bl_into_bytes_spec b HI) as (b2 & -> & ((Hlen2 & Hw2 & Hz2) & Hl2 & Hb2)).
    split; [exact Hw2|].
    destruct (bl_from_bytes_intro cap (bf_bytes b2) (bf_len b)) as (b3 & -> & HI3 & Hl3 & Hb3); auto.
    + rewrite Hlen2, Hl2. apply bfbl_succ.
    + split; [rewrite Hb2, N.eqb_refl; reflexivity | intros j Hj; apply Hz2; lia].
    + f_equal. apply Inv_ext; auto. intros i Hi.
      rewrite Hb3 by lia. rewrite Hb2. replace (i =? bf_len b) with false by lia. reflexivity.
  - split; [exact Hw|]. rewrite <- Hok. apply from_raw_bytes_of_Inv, HI.
  - split; [exact Hw|]. destruct (bfbl_dyn _ Hok) as [H8 H0]. rewrite <- Hlen in H8, H0.
    unfold bd_into_bytes. rewrite bd_decode_eq, H8; [apply from_raw_bytes_of_Inv, HI|].
    intros E. rewrite E in H0. apply H0. reflexivity.
Qed.

(* and the only accepted input that decodes to [b] is its encoding *)
Theorem decode_canon fl bs b : wfb bs -> i_decode fl bs = Ok b -> i_ssz fl b = bs.
Proof.
  intros Hw H. destruct fl as [cap|m|]; cbn [i_ssz i_decode] in *.
  - destruct (bl_from_bytes_elim cap bs b Hw H) as (l & Hlen & _ & (Ht & Ha) & HI & Hl & Hbits).
    destruct (bl_into_bytes_spec b HI) as (b2 & -> & (Hlen2 & Hw2 & _) & Hl2 & Hb2).
    destruct HI as (_ & _ & Hz). apply bytes_ext; auto.
    + rewrite Hlen2, Hl2, Hlen, Hl. apply bfbl_succ.
    + intros i. rewrite Hb2, Hl. destruct (N.lt_trichotomy i l) as [Hi|[->|Hi]].
      * replace (i =? l) with false by lia. apply Hbits, Hi.
      * rewrite N.eqb_refl, Ht. reflexivity.
      * replace (i =? l) with false by lia. rewrite Hz, Ha by lia. reflexivity.
  - destruct (from_raw_elim bs m b Hw H) as (-> & _). reflexivity.
  - destruct (nil_or_not bs) as [->|Hne]; [discriminate|]. rewrite bd_decode_eq in H by exact Hne.
    destruct (from_raw_elim bs _ b Hw H) as (-> & _). reflexivity.
Qed.

(* a value arrives as its bit sequence and is rebuilt the way client code does it: allocate, then [set] *)
Definition i_of_bits (fl : flavour) (bits : list bool) : outcome bf :=
  match fl with
  | FList cap => bl_of_bits cap bits
  | FVec n => bv_of_bits n bits
  | FDyn => bd_of_bits bits
  end.

Lemma of_bits_R fl bits : len_ok fl (blen bits) -> exists b, i_of_bits fl bits = Ok b /\ R fl b bits.
Proof.
  intros Hok.
  assert (exists b, i_of_bits fl bits = Ok b /\ Inv b /\ bf_len b = blen bits /\
                    forall j, bit_at (bf_bytes b) j = nth (N.to_nat j) bits false)
    as (b & E & HI & Hl & Hb).
  { destruct fl as [cap|n|]; cbn [i_of_bits len_ok] in Hok |- *.
    - apply bl_of_bits_ok, Hok.
    - rewrite Hok. apply bv_of_bits_ok, Hok.
    - apply bd_of_bits_ok; apply Hok. }
  exists b. split; [exact E|]. apply R_intro; auto. rewrite Hl. exact Hok.
Qed.
Lemma of_bits_len_ok fl bits b : i_of_bits fl bits = Ok b -> len_ok fl (blen bits).
Proof.
  unfold blen. destruct fl as [cap|n|]; cbn [i_of_bits len_ok].
  - unfold bl_of_bits, bl_with_capacity. destruct (_ <=? cap) eqn:E; [lia | discriminate].
  - unfold bv_of_bits. destruct (_ =? n) eqn:E; [lia | discriminate].
  - unfold bd_of_bits, bd_new. destruct (_ =? 0) eqn:E0; [discriminate|].
    destruct (negb _) eqn:E8; [discriminate | lia].
Qed.
(* [rebuild], whatever the flavour *)
Lemma R_rebuild fl b bits : R fl b bits -> i_of_bits fl bits = Ok b.
Proof.
  intros HR. pose proof (R_len_ok _ _ _ HR) as Hok. rewrite (R_len _ _ _ HR) in Hok.
  destruct (of_bits_R fl bits Hok) as (b' & -> & HR'). f_equal. exact (R_inj fl b' b bits HR' HR).
Qed.

Lemma wfb_fill_buffer data n : wfb data ->
  wfb (fst (fill_buffer data n)) /\ wfb (snd (fill_buffer data n)).
Proof.
  intros Hw. unfold fill_buffer. cbn [fst snd]. split.
  - apply wfb_app. split; [apply wfb_take, Hw | apply wfb_zeros].
  - apply wfb_drop, Hw.
Qed.
Lemma decoded_valid fl bs b : wfb bs -> i_decode fl bs = Ok b ->
  exists bits, R fl b bits /\ len_ok fl (bf_len b) /\ i_decode fl (i_ssz fl b) = Ok b.
Proof.
  intros Hw H. pose proof (R_decode fl bs Hw) as HD. rewrite H in HD.
  destruct (a_decode fl bs) as [bits| |]; try contradiction. exists bits.
  split; [exact HD|]. split; [apply HD | apply (decode_ssz_round_trip fl b bits HD)].
Qed.

(* both generators decode a buffer filled from the data *)
Theorem arb_bitvector_sound n data b : wfb data -> arb_bitvector n data = Ok b ->
  exists bits, R (FVec n) b bits /\ bf_len b = n /\ i_decode (FVec n) (i_ssz (FVec n) b) = Ok b.
Proof. intros Hw. apply (decoded_valid (FVec n)), wfb_fill_buffer, Hw. Qed.
Lemma wfb_arb_list_buf n data : wfb data ->
  wfb (fst (fill_buffer (snd (arbitrary_usize data)) (N.min (fst (arbitrary_usize data)) n))).
Proof. intros Hw. apply wfb_fill_buffer. unfold arbitrary_usize. apply wfb_fill_buffer, Hw. Qed.
Theorem arb_bitlist_sound n data b : wfb data -> arb_bitlist n data = Ok b ->
  exists bits, R (FList n) b bits /\ bf_len b <= n /\ i_decode (FList n) (i_ssz (FList n) b) = Ok b.
Proof. intros Hw. apply (decoded_valid (FList n)), wfb_arb_list_buf, Hw. Qed.
Theorem arb_no_panic n data : wfb data -> arb_bitvector n data <> Panic /\ arb_bitlist n data <> Panic.
Proof.
  intros Hw. split; [apply bitvector_no_panic | apply bitlist_no_panic, wfb_arb_list_buf, Hw].
Qed.

Theorem arb_bitvector_reachable n : exists b, arb_bitvector n [] = Ok b.
Proof.
  exists (zero_bf n). unfold arb_bitvector, fill_buffer. cbv zeta. cbn [fst].
  change (len []) with 0. rewrite N.min_0_r, N.sub_0_r.
  change (take 0 []) with (@nil N). cbn [app].
  apply (from_raw_bytes_of_Inv (zero_bf n)), Inv_zero.
Qed.

Theorem arb_bitlist_reachable n : 1 <= n -> exists b, arb_bitlist n [1; 0; 0; 0; 0; 0; 0; 0; 1] = Ok b.
Proof.
  (* the size read is 1 and the buffer [1], which decodes to the empty bitlist; of [n] the run
     consults only [min 1 n] and [0 <= n], which compute once [n] is known to be positive *)
  intros Hn. exists (zero_bf 0). destruct n as [|[p|p|]]; [lia| | |]; reflexivity.
Qed.
