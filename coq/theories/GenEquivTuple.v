(** * GenEquivTuple: the tuple impls, which [impl_encode_for_tuples!] / [impl_decode_for_tuples!] write by
    macro repetition.  rustc's expansion of the crate itself is translated (arities 2, 3, 4 here, 5 to 12 in
    GenEquivTupleN) and each function is proved equal to the model's container codec [TContainer false [..]] -- for
    every component type expression, every value and every byte string: the theorems are generic in the
    component types, whose trait impls enter as dictionaries instantiated with the model's own
    [append] / [bytes_len] / [dec] (the model's recursion over [ty] is the source's trait resolution). *)
From SSZ Require Import Base RustSem Offsets Encoder Builder Types Codec CodecUnfold BaseFacts OffsetsFacts LayoutFacts AppendFacts MetaFacts
     Generated GenEquiv GenEquivDec GenEquivEnc GenProps GeneratedDerive GenEquivDerive GenEquivDerive2.
From Coq Require Import ZArith ZifyN ZifyBool ZifyNat Lia.
Open Scope N_scope.

(** ** The statements that the tuple macros repeat

    The state-passing ones are [step_chain] / [add_chain] / [reg_chain] of GenEquivDerive at the components; the two
    that bind a value per component ([decoder.decode_next()?], and the size of a component in [ssz_bytes_len]) are
    recursions of the same kind here.  On a literal list each unfolds to exactly the expanded code, so the
    statement about a tuple of arity n is convertible to a statement about an n-element list, proved once. *)

(** [decoder.decode_next()?] per component; [k] receives the decoded components in order *)
Fixpoint next_chain {A R} (ds : list (bytes -> outcome A)) (d : Gen.SszDecoder)
         (k : list A -> outcome R) : outcome R :=
  match ds with
  | [] => k []
  | f :: r => do vs <- Gen.decoder_decode_next f d; next_chain r (snd vs) (fun xs => k (fst vs :: xs))
  end.

Lemma next_chain_eq {A R} (ds : list (bytes -> outcome A)) : forall items (k : list A -> outcome R),
  next_chain ds {| Gen.SszDecoder_items := items |} k = do xs <- decode_all items ds; k xs.
Proof.
  induction ds as [|f r IH]; intros items k; cbn [next_chain decode_all bind]; [reflexivity|].
  rewrite (decode_next_bind items f (fun x d => next_chain r d (fun xs => k (x :: xs)))).
  destruct (decode_next items f) as [[x its]| |]; cbn [bind fst snd]; try reflexivity.
  rewrite IH. destruct (decode_all its r); reflexivity.
Qed.

(** The whole of an expanded [from_ssz_bytes]: what the builder path of the model computes. *)
Definition from_chain {R} (ts : list ty) (bs : bytes) (k : list val -> outcome R) : outcome R :=
  do b0 <- Gen.builder_new bs;
  reg_chain (regs_of ts) b0 (fun b => do d <- Gen.builder_build b; next_chain (map dec ts) d k).

Theorem from_chain_eq {R} ts bs (k : list val -> outcome R) :
  from_chain ts bs k
  = do items <- builder_build (regs_of ts) bs; do xs <- decode_all items (map dec ts); k xs.
Proof.
  unfold from_chain. rewrite builder_frame.
  destruct (builder_build (regs_of ts) bs); cbn [bind]; try reflexivity. apply next_chain_eq.
Qed.

Lemma decode_all_length {A} (fs : list (bytes -> outcome A)) : forall items xs,
  decode_all items fs = Ok xs -> length xs = length fs.
Proof.
  induction fs as [|f r IH]; intros items xs; cbn [decode_all].
  - intros [= <-]. reflexivity.
  - destruct (decode_next items f) as [[x its]| |]; cbn [bind fst snd]; try discriminate.
    destruct (decode_all its r) as [ys| |] eqn:E; cbn [bind]; try discriminate.
    intros [= <-]. cbn [length]. f_equal. exact (IH _ _ E).
Qed.

(** ... which is the model's decoder of the tuple's schema, when [k] packs the components as [inj] unpacks them *)
Corollary from_chain_dec {R} ts bs (k : list val -> outcome R) (inj : R -> val) :
  (forall vs, length vs = length ts -> omap inj (k vs) = Ok (VCont vs)) ->
  omap inj (from_chain ts bs k) = dec (TContainer false ts) bs.
Proof.
  intro Hk. rewrite from_chain_eq, dec_container. cbn [andb].
  destruct (builder_build (regs_of ts) bs) as [items| |]; cbn [bind]; try reflexivity.
  destruct (decode_all items (map dec ts)) as [xs| |] eqn:E; cbn [bind omap]; try reflexivity.
  apply Hk. rewrite (decode_all_length _ _ _ E). apply map_length.
Qed.

Corollary from_chain_ok {R} ts bs vs (k : list val -> outcome R) :
  dec (TContainer false ts) bs = Ok (VCont vs) -> from_chain ts bs k = k vs.
Proof.
  rewrite from_chain_eq, dec_container. cbn [andb].
  destruct (builder_build (regs_of ts) bs) as [items| |]; cbn [bind]; try discriminate.
  destruct (decode_all items (map dec ts)); cbn [omap bind]; congruence.
Qed.

Lemma fold_add_sum ls acc : fold_left N.add ls acc = acc + sumN ls.
Proof. revert acc. induction ls as [|l r IH]; intro acc; cbn [fold_left sumN]; [|rewrite IH]; lia. Qed.

(** [encoder.append(&self.i);] for a component, and the component's size *)
Definition put_item (p : ty * val) : Gen.SszEncoder -> outcome Gen.SszEncoder := put (e_is_fixed (fst p)) (app_of (fst p)) (snd p).
Definition enc_len (p : ty * val) : N := len (enc (fst p) (snd p)).

(** one [encoder.append]: the new encoder exists and abstracts to the model's *)
Lemma append_item_ok f (app : val -> bytes -> bytes) s x :
  e_offset (enc_abs s) + len (e_var (enc_abs s)) <= usize_max ->
  exists s', Gen.encoder_append_item f (fun a b => Ok (app a b)) s x = Ok s' /\ enc_abs s' = enc_append (enc_abs s) f (app x).
Proof. exact (put_as f (fun a b => Ok (app a b)) x (app x) (fun _ => eq_refl) s). Qed.

Lemma var_len_le tvs : sumN (map var_len tvs) <= sumN (map enc_len tvs).
Proof.
  induction tvs as [|p r IH]; cbn [map sumN]; [lia|].
  unfold var_len at 1, enc_len at 1. destruct (e_is_fixed (fst p)); lia.
Qed.

(** The whole of an expanded [ssz_append]: the fixed lengths are summed from the first component's, with a final
    [+ 0], in [usize] arithmetic. *)
Definition append_chain_run (t0 : ty) (ts : list ty) (vs : list val) (buf : bytes) : outcome bytes :=
  add_chain usize_add (map e_fixed_len ts ++ [0]) (e_fixed_len t0) (fun off =>
    do e <- Gen.encoder_container buf off;
    step_chain (map put_item (combine (t0 :: ts) vs)) e
      (fun e => do e' <- Gen.encoder_finalize e; Ok (Gen.SszEncoder_buf e'))).

(** the bound counts every component but the last at its full size, fixed or not: more than [encoder_frame] needs *)
Theorem append_chain_run_eq t0 ts vs buf :
  fold_left N.add (map e_fixed_len ts ++ map enc_len (removelast (combine (t0 :: ts) vs))) (e_fixed_len t0) <= usize_max ->
  append_chain_run t0 ts vs buf = Ok (append (TContainer false (t0 :: ts)) (VCont vs) buf).
Proof.
  rewrite fold_add_sum, sumN_app. intro H. pose proof (var_len_le (removelast (combine (t0 :: ts) vs))) as L.
  unfold append_chain_run. rewrite (add_chain_ok usize_add) by (try exact usize_add_ok; rewrite sumN_app; cbn [sumN]; lia).
  replace (e_fixed_len t0 + sumN (map e_fixed_len ts ++ [0])) with (sumN (map e_fixed_len (t0 :: ts)))
    by (rewrite sumN_app; cbn [map sumN]; lia).
  apply encoder_frame; [|cbn [map sumN]; lia].
  apply Forall2_map_left. intro p. apply put_as. reflexivity.
Qed.

Lemma and_chain (f : ty -> bool) ts : forall b, fold_left andb (map f ts ++ [true]) b = b && forallb f ts.
Proof.
  induction ts as [|t r IH]; intro b; cbn [map app fold_left forallb].
  - reflexivity.
  - rewrite IH. apply eq_sym, andb_assoc.
Qed.

(** [is_ssz_fixed_len] and [ssz_fixed_len] of a tuple, on either side ([f], [l]: the components' own) *)
Definition all_chain (f : ty -> bool) (t0 : ty) (ts : list ty) : bool := fold_left andb (map f ts ++ [true]) (f t0).
Definition fixed_len_chain (f : ty -> bool) (l : ty -> N) (t0 : ty) (ts : list ty) : outcome N :=
  if all_chain f t0 ts then add_chain usize_add (map l ts) (l t0) (fun t => usize_add t 0) else Ok Gen.BYTES_PER_LENGTH_OFFSET.

Lemma all_chain_eq f t0 ts : all_chain f t0 ts = forallb f (t0 :: ts).
Proof. apply and_chain. Qed.

Lemma fixed_len_chain_eq f l t0 ts :
  fold_left N.add (map l ts) (l t0) <= usize_max ->
  fixed_len_chain f l t0 ts = Ok (if forallb f (t0 :: ts) then sumN (map l (t0 :: ts)) else BYTES_PER_LENGTH_OFFSET).
Proof.
  rewrite fold_add_sum. intro H. unfold fixed_len_chain. rewrite all_chain_eq.
  destruct (forallb f (t0 :: ts)); [|reflexivity].
  rewrite (add_chain_ok usize_add _ _ _ usize_add_ok), usize_add_ok, N.add_0_r by (rewrite ?N.add_0_r; exact H). reflexivity.
Qed.

(** one component's share of [ssz_bytes_len], added to the running sum: two statements per component, the first
    of which binds the share *)
Fixpoint len_chain {R} (items : list (bool * N * outcome N)) (acc : N) (k : N -> outcome R) : outcome R :=
  match items with
  | [] => k acc
  | (f, l, bl) :: r =>
      do t <- (if f then Ok l else do b <- bl; usize_add Gen.BYTES_PER_LENGTH_OFFSET b);
      do s <- usize_add acc t; len_chain r s k
  end.

Definition len_item (p : ty * val) : bool * N * outcome N := (e_is_fixed (fst p), e_fixed_len (fst p), len_of (fst p) (snd p)).

Lemma len_chain_cons {R} (f : bool) (l bl : N) r acc (k : N -> outcome R) :
  acc + (if f then l else 4 + bl) <= usize_max ->
  len_chain ((f, l, Ok bl) :: r) acc k = len_chain r (acc + (if f then l else 4 + bl)) k.
Proof.
  intro H. cbn [len_chain bind]. unfold Gen.BYTES_PER_LENGTH_OFFSET.
  destruct f; rewrite ?(usize_add_ok 4) by lia; cbn [bind]; rewrite usize_add_ok by exact H; reflexivity.
Qed.

Lemma len_chain_ok {R} tvs : forall acc (k : N -> outcome R),
  acc + sumN (map (fun p => field_len (fst p) (snd p)) tvs) <= usize_max ->
  len_chain (map len_item tvs) acc k = k (acc + sumN (map (fun p => field_len (fst p) (snd p)) tvs)).
Proof.
  induction tvs as [|[t x] r IH]; intros acc k H; cbn [map sumN fst snd] in *.
  - cbn [len_chain]. f_equal. lia.
  - unfold len_item at 1, len_of. cbn [fst snd].
    change (field_len t x) with (if e_is_fixed t then e_fixed_len t else 4 + bytes_len t x) in *.
    rewrite len_chain_cons, IH by lia. f_equal. lia.
Qed.

(** The whole of an expanded [ssz_bytes_len]. *)
Definition len_chain_run (t0 : ty) (ts : list ty) (vs : list val) : outcome N :=
  if all_chain e_is_fixed t0 ts then fixed_len_chain e_is_fixed e_fixed_len t0 ts
  else len_chain (map len_item (combine (t0 :: ts) vs)) 0 Ok.

Theorem len_chain_run_eq t0 ts v0 vs :
  fold_left N.add (map e_fixed_len ts) (e_fixed_len t0) <= usize_max ->
  fold_left N.add (map (fun p => field_len (fst p) (snd p)) (combine ts vs)) (field_len t0 v0) <= usize_max ->
  len_chain_run t0 ts (v0 :: vs) = Ok (bytes_len (TContainer false (t0 :: ts)) (VCont (v0 :: vs))).
Proof.
  intros HF H. unfold len_chain_run. rewrite (fixed_len_chain_eq _ _ _ _ HF), all_chain_eq, bytes_len_container.
  destruct (forallb e_is_fixed (t0 :: ts)); [reflexivity|].
  rewrite fold_add_sum in H. rewrite len_chain_ok; cbn [combine map sumN fst snd]; [f_equal|]; lia.
Qed.

Definition tup2 (vs : list val) : outcome (val * val) :=
  match vs with [a; b] => Ok (a, b) | _ => Err end.

Theorem gen_tuple2_from_ssz_bytes tA tB bs :
  omap (fun p : val * val => VCont [fst p; snd p])
    (GenD.tuple2_from_ssz_bytes (d_is_fixed tA) (d_fixed_len tA) (dec tA) (d_is_fixed tB) (d_fixed_len tB) (dec tB) bs)
  = dec (TContainer false [tA; tB]) bs.
Proof.
  apply (from_chain_dec [tA; tB] bs tup2).
  intros [|a [|b [|]]]; try discriminate. reflexivity.
Qed.

Theorem gen_tuple2_ssz_append tA tB a b buf :
  e_fixed_len tA + e_fixed_len tB + len (enc tA a) <= usize_max ->
  GenD.tuple2_ssz_append (e_is_fixed tA) (e_fixed_len tA) (app_of tA) (e_is_fixed tB) (e_fixed_len tB) (app_of tB) (a, b) buf
  = Ok (append (TContainer false [tA; tB]) (VCont [a; b]) buf).
Proof.
  intro H. apply (append_chain_run_eq tA [tB] [a; b]).
  cbn [fold_left map app removelast combine enc_len fst snd]. exact H.
Qed.

Theorem gen_tuple2_metadata tA tB :
  e_fixed_len tA + e_fixed_len tB <= usize_max -> d_fixed_len tA + d_fixed_len tB <= usize_max ->
  GenD.tuple2_enc_is_ssz_fixed_len (e_is_fixed tA) (e_is_fixed tB) = Ok (e_is_fixed (TContainer false [tA; tB])) /\
  GenD.tuple2_enc_ssz_fixed_len (e_is_fixed tA) (e_fixed_len tA) (e_is_fixed tB) (e_fixed_len tB) = Ok (e_fixed_len (TContainer false [tA; tB])) /\
  GenD.tuple2_dec_is_ssz_fixed_len (d_is_fixed tA) (d_is_fixed tB) = Ok (d_is_fixed (TContainer false [tA; tB])) /\
  GenD.tuple2_dec_ssz_fixed_len (d_is_fixed tA) (d_fixed_len tA) (d_is_fixed tB) (d_fixed_len tB) = Ok (d_fixed_len (TContainer false [tA; tB])).
Proof.
  intros He Hd. repeat split.
  - exact (f_equal Ok (all_chain_eq e_is_fixed tA [tB])).
  - exact (fixed_len_chain_eq e_is_fixed e_fixed_len tA [tB] He).
  - exact (f_equal Ok (all_chain_eq d_is_fixed tA [tB])).
  - exact (fixed_len_chain_eq d_is_fixed d_fixed_len tA [tB] Hd).
Qed.

Theorem gen_tuple2_ssz_bytes_len tA tB a b :
  e_fixed_len tA + e_fixed_len tB <= usize_max ->
  field_len tA a + field_len tB b <= usize_max ->
  GenD.tuple2_ssz_bytes_len (e_is_fixed tA) (e_fixed_len tA) (len_of tA) (e_is_fixed tB) (e_fixed_len tB) (len_of tB) (a, b)
  = Ok (bytes_len (TContainer false [tA; tB]) (VCont [a; b])).
Proof.
  intros Hf H. exact (len_chain_run_eq tA [tB] a [b] Hf H).
Qed.

Definition tup3 (vs : list val) : outcome (val * val * val) :=
  match vs with [a; b; c] => Ok (a, b, c) | _ => Err end.

Theorem gen_tuple3_from_ssz_bytes tA tB tC bs :
  omap (fun p : val * val * val => VCont [fst (fst p); snd (fst p); snd p])
    (GenD.tuple3_from_ssz_bytes (d_is_fixed tA) (d_fixed_len tA) (dec tA) (d_is_fixed tB) (d_fixed_len tB) (dec tB)
       (d_is_fixed tC) (d_fixed_len tC) (dec tC) bs)
  = dec (TContainer false [tA; tB; tC]) bs.
Proof.
  apply (from_chain_dec [tA; tB; tC] bs tup3).
  intros [|a [|b [|c [|]]]]; try discriminate. reflexivity.
Qed.

Theorem gen_tuple3_ssz_append tA tB tC a b c buf :
  e_fixed_len tA + e_fixed_len tB + e_fixed_len tC + len (enc tA a) + len (enc tB b) <= usize_max ->
  GenD.tuple3_ssz_append (e_is_fixed tA) (e_fixed_len tA) (app_of tA) (e_is_fixed tB) (e_fixed_len tB) (app_of tB)
    (e_is_fixed tC) (e_fixed_len tC) (app_of tC) (a, b, c) buf
  = Ok (append (TContainer false [tA; tB; tC]) (VCont [a; b; c]) buf).
Proof.
  intro H. apply (append_chain_run_eq tA [tB; tC] [a; b; c]).
  cbn [fold_left map app removelast combine enc_len fst snd]. exact H.
Qed.

Theorem gen_tuple3_metadata tA tB tC :
  e_fixed_len tA + e_fixed_len tB + e_fixed_len tC <= usize_max ->
  GenD.tuple3_enc_is_ssz_fixed_len (e_is_fixed tA) (e_is_fixed tB) (e_is_fixed tC) = Ok (e_is_fixed (TContainer false [tA; tB; tC])) /\
  GenD.tuple3_enc_ssz_fixed_len (e_is_fixed tA) (e_fixed_len tA) (e_is_fixed tB) (e_fixed_len tB) (e_is_fixed tC) (e_fixed_len tC)
    = Ok (e_fixed_len (TContainer false [tA; tB; tC])) /\
  GenD.tuple3_dec_is_ssz_fixed_len (d_is_fixed tA) (d_is_fixed tB) (d_is_fixed tC) = Ok (d_is_fixed (TContainer false [tA; tB; tC])) /\
  GenD.tuple3_dec_ssz_fixed_len (d_is_fixed tA) (d_fixed_len tA) (d_is_fixed tB) (d_fixed_len tB) (d_is_fixed tC) (d_fixed_len tC)
    = Ok (d_fixed_len (TContainer false [tA; tB; tC])).
Proof.
  intros He. repeat split.
  - exact (f_equal Ok (all_chain_eq e_is_fixed tA [tB; tC])).
  - exact (fixed_len_chain_eq e_is_fixed e_fixed_len tA [tB; tC] He).
  - exact (f_equal Ok (all_chain_eq d_is_fixed tA [tB; tC])).
  - (* [He] bounds the Decode side too: [d_fixed_len] is convertible to [e_fixed_len] ([MetaFacts.fixed_len_agree]) *)
    exact (fixed_len_chain_eq d_is_fixed d_fixed_len tA [tB; tC] He).
Qed.

Theorem gen_tuple3_ssz_bytes_len tA tB tC a b c :
  e_fixed_len tA + e_fixed_len tB + e_fixed_len tC <= usize_max ->
  field_len tA a + field_len tB b + field_len tC c <= usize_max ->
  GenD.tuple3_ssz_bytes_len (e_is_fixed tA) (e_fixed_len tA) (len_of tA) (e_is_fixed tB) (e_fixed_len tB) (len_of tB)
    (e_is_fixed tC) (e_fixed_len tC) (len_of tC) (a, b, c)
  = Ok (bytes_len (TContainer false [tA; tB; tC]) (VCont [a; b; c])).
Proof.
  intros Hf H. exact (len_chain_run_eq tA [tB; tC] a [b; c] Hf H).
Qed.

Definition tup4 (vs : list val) : outcome (val * val * val * val) :=
  match vs with [a; b; c; d] => Ok (a, b, c, d) | _ => Err end.

Theorem gen_tuple4_from_ssz_bytes tA tB tC tD bs :
  omap (fun p : val * val * val * val => VCont [fst (fst (fst p)); snd (fst (fst p)); snd (fst p); snd p])
    (GenD.tuple4_from_ssz_bytes (d_is_fixed tA) (d_fixed_len tA) (dec tA) (d_is_fixed tB) (d_fixed_len tB) (dec tB)
       (d_is_fixed tC) (d_fixed_len tC) (dec tC) (d_is_fixed tD) (d_fixed_len tD) (dec tD) bs)
  = dec (TContainer false [tA; tB; tC; tD]) bs.
Proof.
  apply (from_chain_dec [tA; tB; tC; tD] bs tup4).
  intros [|a [|b [|c [|d [|]]]]]; try discriminate. reflexivity.
Qed.

Theorem gen_tuple4_ssz_append tA tB tC tD a b c d buf :
  e_fixed_len tA + e_fixed_len tB + e_fixed_len tC + e_fixed_len tD + len (enc tA a) + len (enc tB b) + len (enc tC c) <= usize_max ->
  GenD.tuple4_ssz_append (e_is_fixed tA) (e_fixed_len tA) (app_of tA) (e_is_fixed tB) (e_fixed_len tB) (app_of tB)
    (e_is_fixed tC) (e_fixed_len tC) (app_of tC) (e_is_fixed tD) (e_fixed_len tD) (app_of tD) (a, b, c, d) buf
  = Ok (append (TContainer false [tA; tB; tC; tD]) (VCont [a; b; c; d]) buf).
Proof.
  intro H. apply (append_chain_run_eq tA [tB; tC; tD] [a; b; c; d]).
  cbn [fold_left map app removelast combine enc_len fst snd]. exact H.
Qed.

Theorem gen_tuple4_metadata tA tB tC tD :
  e_fixed_len tA + e_fixed_len tB + e_fixed_len tC + e_fixed_len tD <= usize_max ->
  GenD.tuple4_enc_is_ssz_fixed_len (e_is_fixed tA) (e_is_fixed tB) (e_is_fixed tC) (e_is_fixed tD) = Ok (e_is_fixed (TContainer false [tA; tB; tC; tD])) /\
  GenD.tuple4_enc_ssz_fixed_len (e_is_fixed tA) (e_fixed_len tA) (e_is_fixed tB) (e_fixed_len tB) (e_is_fixed tC) (e_fixed_len tC) (e_is_fixed tD) (e_fixed_len tD)
    = Ok (e_fixed_len (TContainer false [tA; tB; tC; tD])) /\
  GenD.tuple4_dec_is_ssz_fixed_len (d_is_fixed tA) (d_is_fixed tB) (d_is_fixed tC) (d_is_fixed tD) = Ok (d_is_fixed (TContainer false [tA; tB; tC; tD])) /\
  GenD.tuple4_dec_ssz_fixed_len (d_is_fixed tA) (d_fixed_len tA) (d_is_fixed tB) (d_fixed_len tB) (d_is_fixed tC) (d_fixed_len tC) (d_is_fixed tD) (d_fixed_len tD)
    = Ok (d_fixed_len (TContainer false [tA; tB; tC; tD])).
Proof.
  intros He. repeat split.
  - exact (f_equal Ok (all_chain_eq e_is_fixed tA [tB; tC; tD])).
  - exact (fixed_len_chain_eq e_is_fixed e_fixed_len tA [tB; tC; tD] He).
  - exact (f_equal Ok (all_chain_eq d_is_fixed tA [tB; tC; tD])).
  - exact (fixed_len_chain_eq d_is_fixed d_fixed_len tA [tB; tC; tD] He).
Qed.

Theorem gen_tuple4_ssz_bytes_len tA tB tC tD a b c d :
  e_fixed_len tA + e_fixed_len tB + e_fixed_len tC + e_fixed_len tD <= usize_max ->
  field_len tA a + field_len tB b + field_len tC c + field_len tD d <= usize_max ->
  GenD.tuple4_ssz_bytes_len (e_is_fixed tA) (e_fixed_len tA) (len_of tA) (e_is_fixed tB) (e_fixed_len tB) (len_of tB)
    (e_is_fixed tC) (e_fixed_len tC) (len_of tC) (e_is_fixed tD) (e_fixed_len tD) (len_of tD) (a, b, c, d)
  = Ok (bytes_len (TContainer false [tA; tB; tC; tD]) (VCont [a; b; c; d])).
Proof.
  intros Hf H. exact (len_chain_run_eq tA [tB; tC; tD] a [b; c; d] Hf H).
Qed.

Print Assumptions gen_tuple2_metadata.
Print Assumptions gen_tuple2_ssz_append.
Print Assumptions gen_tuple2_ssz_bytes_len.
Print Assumptions gen_tuple2_from_ssz_bytes.
Print Assumptions gen_tuple3_metadata.
Print Assumptions gen_tuple3_ssz_append.
Print Assumptions gen_tuple3_ssz_bytes_len.
Print Assumptions gen_tuple3_from_ssz_bytes.
Print Assumptions gen_tuple4_metadata.
Print Assumptions gen_tuple4_ssz_append.
Print Assumptions gen_tuple4_ssz_bytes_len.
Print Assumptions gen_tuple4_from_ssz_bytes.
