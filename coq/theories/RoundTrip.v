(** * Round trip: decoding an encoding returns the original value (C01).
    First, what the decoders of sequences, containers and legacy options (C17) compute in terms of
    the layout: on an assembled input they run the item decoders on the parts, and an accepted
    input is assembled from slices the item decoders accept. *)
From SSZ Require Import BaseFacts OffsetsFacts BuilderFacts Layout LayoutFacts Codec CodecUnfold
     MetaFacts AppendFacts LeafIface SizeFacts ListDecFacts SpecFacts WfbFacts OrderFacts.
From Coq Require Import ZArith ZifyN ZifyNat ZifyBool.
Open Scope N_scope.

Definition two32 : N := 4294967296.

Definition rt_ok (t : ty) : Prop :=
  rt_type t = true ->
  forall v, has_ty t v = true -> len (enc t v) < two32 -> dec t (enc t v) = Ok v.
Definition rt_at (t : ty) (v : val) : Prop :=
  rt_type t = true -> len (enc t v) < two32 -> dec t (enc t v) = Ok v.

Lemma seq_enc_nil f : seq_enc f [] = [].
Proof. destruct f; reflexivity. Qed.

Lemma seq_enc_item_le f encs e : In e encs -> len e <= len (seq_enc f encs).
Proof.
  intros HI. rewrite seq_enc_len.
  assert (len e <= sumN (map len encs)).
  { induction encs as [|x r IH]; [destruct HI|]. cbn [map sumN]. destruct HI as [->|HI]; [lia|]. specialize (IH HI). lia. }
  destruct f; lia.
Qed.

Lemma offsets_fit_bound parts : forall off,
  off + len (var_concat parts) < two32 -> offsets_fit off parts.
Proof.
  induction parts as [|[[|] b] r IH]; intros off H; cbn [offsets_fit]; [exact I| |].
  - apply IH. rewrite var_concat_true in H. exact H.
  - rewrite var_concat_false, len_app in H. split; [unfold two32 in *; lia|]. apply IH. lia.
Qed.

(** The side conditions under which [seq_enc f slices] decodes to [slices]: items of the
    registered non-zero length, or offsets that fit their four bytes. *)
Definition seq_fits (f : bool) (k : N) (slices : list bytes) : Prop :=
  if f then 0 < k /\ Forall (fun s => len s = k) slices
  else offsets_fit (4 * N.of_nat (length slices)) (map (fun s => (false, s)) slices).

Lemma seq_fits_bound f k encs :
  (f = true -> 0 < k /\ Forall (fun s => len s = k) encs) -> len (seq_enc f encs) < two32 ->
  seq_fits f k encs.
Proof.
  intros Hf Hl. destruct f; [now apply Hf|]. apply offsets_fit_bound.
  rewrite seq_enc_len in Hl. rewrite var_concat_var, len_concat. lia.
Qed.

Lemma dec_seq_enc {A} (d : bytes -> outcome A) f k slices :
  seq_fits f k slices -> dec_seq f k d (seq_enc f slices) = mapM d slices.
Proof.
  destruct slices as [|s r]; [now rewrite seq_enc_nil|]. destruct f; intros H.
  - apply dec_seq_fixed_concat; apply H.
  - unfold seq_enc. rewrite <- decode_list_var_assemble by (exact H || discriminate).
    destruct (assemble _ _) eqn:E; [|reflexivity].
    apply (f_equal len) in E. rewrite asm_len, len_nil in E. cbn [map sumN fst snd] in E. lia.
Qed.

Lemma dec_seq_ok {A} (Q : bytes -> Prop) (d : bytes -> outcome A) f k bs vs :
  slice_closed Q -> Q bs -> wfb bs -> dec_seq f k d bs = Ok vs ->
  exists slices, bs = seq_enc f slices /\ Forall Q slices /\ mapM d slices = Ok vs.
Proof.
  intros HQ Hq Hw H. destruct bs as [|b0 br].
  { injection H as <-. exists []. now rewrite seq_enc_nil. }
  destruct f.
  - destruct (N.eq_dec k 0) as [->|Hk]; [discriminate|].
    destruct (dec_seq_fixed_ok_rel Q d k _ vs HQ Hq ltac:(lia) H) as (slices & <- & Hm & Hs & _).
    exists slices. auto.
  - apply (decode_list_var_tiles d _ vs Hw) in H as [[? _]|(slices & HT & Hm)]; [discriminate|].
    exists slices. split; [apply HT|]. split; [exact (tiles_list_slices Q _ _ HQ Hq HT)|exact Hm].
Qed.

(** ** Containers whose fields are all fixed-size: tiling is cutting at the registered lengths,
    and the fast path of derived containers ([split_at] field by field) is the builder path. *)
Lemma all_fixed_parts (parts : list part) : forallb fst parts = true -> forall off,
  assemble off parts = concat (map snd parts) /\ offsets_fit off parts.
Proof.
  intros H off. unfold assemble.
  induction parts as [|[[|] b] r IH]; cbn [forallb fst andb] in H; try discriminate; [now split|].
  destruct (IH H) as [E F]. rewrite var_concat_true. cbn [assemble_fixed map concat snd offsets_fit].
  now rewrite <- app_assoc, E.
Qed.

Lemma tiles_all_fixed regs : forallb fst regs = true -> forall bs slices,
  Tiles regs bs slices <->
  Forall2 (fun (r : bool * N) (s : bytes) => len s = snd r) regs slices /\ bs = concat slices.
Proof.
  intros Hall bs slices. unfold Tiles. cbv zeta.
  assert (P : forall ss : list bytes, length ss = length regs ->
          forallb fst (combine (map fst regs) ss) = true /\ map snd (combine (map fst regs) ss) = ss).
  { clear slices. induction regs as [|[f l] regs IH]; intros [|s ss] Hl; try discriminate; [now split|].
    cbn [forallb fst] in Hall. apply andb_prop in Hall as [-> Hall]. injection Hl as Hl.
    destruct (IH Hall ss Hl) as [I1 I2]. cbn [map combine forallb fst snd]. now rewrite I1, I2. }
  rewrite forallb_forall in Hall. split.
  - intros (Hl & HF & _ & ->). destruct (P slices Hl) as [P1 P2].
    rewrite (proj1 (all_fixed_parts _ P1 _)), P2. split; [|reflexivity].
    clear -HF Hall. induction HF as [|r s regs ss H _ IH]; constructor.
    + apply H, Hall. now left.
    + apply IH. intros x Hx. apply Hall. now right.
  - intros (HF & ->). pose proof (Forall2_len _ _ _ HF) as Hl. symmetry in Hl.
    destruct (P slices Hl) as [P1 P2]. destruct (all_fixed_parts _ P1 (fixed_size (combine (map fst regs) slices))) as [E F].
    rewrite E, P2. repeat split; auto. clear -HF. induction HF; constructor; auto.
Qed.

Fixpoint cut (ls : list N) (bs : bytes) : list bytes :=
  match ls with
  | [] => []
  | l :: r => take l bs :: cut r (drop l bs)
  end.

Lemma cut_tiles (regs : list (bool * N)) : forall bs, len bs = sumN (map snd regs) ->
  Forall2 (fun (r : bool * N) (s : bytes) => len s = snd r) regs (cut (map snd regs) bs) /\
  bs = concat (cut (map snd regs) bs).
Proof.
  induction regs as [|r regs IH]; intros bs H; cbn [map sumN cut concat] in *.
  - split; [constructor|]. destruct bs; [reflexivity|]. rewrite len_cons in H. lia.
  - destruct (IH (drop (snd r) bs)) as [I1 I2]; [rewrite len_drop; lia|].
    split; [constructor; [apply len_take; lia|exact I1]|]. now rewrite <- I2, take_drop.
Qed.

Lemma split_dec_cut (ds : list (N * (bytes -> outcome val))) : forall bs,
  sumN (map fst ds) <= len bs ->
  split_dec ds bs = decode_all (cut (map fst ds) bs) (map snd ds).
Proof.
  induction ds as [|[l d] ds IH]; intros bs H; cbn [map sumN fst snd] in H; [reflexivity|].
  cbn [map fst snd split_dec cut decode_all decode_next]. unfold split_at.
  replace (l <=? len bs) with true by lia. cbn [bind fst snd].
  destruct (d (take l bs)); cbn [bind fst snd]; try reflexivity.
  now rewrite IH by (rewrite len_drop; lia).
Qed.

Lemma all_fixed_len (regs : list (bool * N)) (slices : list bytes) :
  Forall2 (fun (r : bool * N) (s : bytes) => len s = snd r) regs slices ->
  len (concat slices) = sumN (map snd regs).
Proof.
  induction 1 as [|r s regs ss H _ IH]; cbn [concat map sumN]; [reflexivity|].
  now rewrite len_app, H, IH.
Qed.

Lemma regs_of_fst fs : forallb fst (regs_of fs) = forallb d_is_fixed fs.
Proof. unfold regs_of. induction fs as [|f fs IH]; cbn [map forallb fst]; congruence. Qed.
Lemma regs_of_snd fs : map snd (regs_of fs) = map d_fixed_len fs.
Proof. unfold regs_of. now rewrite map_map. Qed.

Lemma dec_container_builder d fs bs :
  phys bs ->
  dec (TContainer d fs) bs =
  do items <- builder_build (regs_of fs) bs; omap VCont (decode_all items (map dec fs)).
Proof.
  intros [Hw Hm]. rewrite dec_container.
  destruct d; [|reflexivity]. destruct (forallb d_is_fixed fs) eqn:Eall; [|reflexivity]. cbn [andb].
  pose proof (regs_of_snd fs) as Hsnd. rewrite <- regs_of_fst in Eall.
  pose proof (tiles_all_fixed _ Eall bs) as HT.
  destruct (len bs =? sumN (map d_fixed_len fs)) eqn:El; cbn [negb].
  - (* the right length: the builder finds the tiling [cut], whose slices are the ones the
       field-by-field [split_at] takes *)
    apply N.eqb_eq in El. rewrite <- Hsnd in El. pose proof (cut_tiles _ bs El) as C. rewrite Hsnd in *.
    rewrite (proj2 (builder_build_tiles _ bs (cut (map d_fixed_len fs) bs) Hw Hm)).
    + cbn [bind]. f_equal.
      rewrite (split_dec_cut (map (fun f => (d_fixed_len f, dec f)) fs)), !map_map; cbn [fst snd]; [reflexivity|].
      rewrite map_map. apply N.eq_le_incl. symmetry. exact El.
    + apply HT, C.
  - (* a wrong length: no tiling exists and the builder does not panic, so it refuses as well *)
    pose proof (builder_build_no_panic (regs_of fs) bs Hm) as Hn.
    destruct (builder_build (regs_of fs) bs) as [items| |] eqn:Eb; [|reflexivity|congruence].
    apply (builder_build_tiles _ _ _ Hw Hm), HT in Eb as [HF ->].
    rewrite (all_fixed_len _ _ HF), Hsnd in El. lia.
Qed.

Lemma rt_seq (L : LeafFacts) t vs :
  Forall (rt_at t) vs -> rt_type t = true -> zero_len_fixed t = false ->
  forallb (has_ty t) vs = true ->
  len (seq_enc (e_is_fixed t) (map (enc t) vs)) < two32 ->
  dec_seq (d_is_fixed t) (d_fixed_len t) (dec t) (seq_enc (e_is_fixed t) (map (enc t) vs)) = Ok vs.
Proof.
  intros Ht Hrt Hz Hvs Hlen. rewrite forallb_forall in Hvs. rewrite Forall_forall in Ht.
  rewrite <- is_fixed_agree, <- fixed_len_agree, dec_seq_enc.
  - apply mapM_map_ok. intros x Hx. apply (Ht x Hx Hrt).
    eapply N.le_lt_trans; [|exact Hlen]. apply seq_enc_item_le. now apply in_map.
  - apply seq_fits_bound; [|exact Hlen]. intros Ef. unfold zero_len_fixed in Hz. rewrite Ef in Hz.
    split; [cbn [andb] in Hz; lia|]. apply Forall_forall. intros s Hs.
    apply in_map_iff in Hs as (x & <- & Hx). now apply (size_facts L t x (Hvs x Hx)).
Qed.

Lemma part_le_assemble nf parts p : In p parts -> len (snd p) <= len (assemble nf parts).
Proof.
  intros HI. rewrite asm_len. induction parts as [|q r IH]; [destruct HI|].
  cbn [map sumN]. destruct HI as [->|HI].
  - destruct (fst p); lia.
  - specialize (IH HI). lia.
Qed.

Lemma cont_parts_fst fs vs :
  has_ty_fields fs vs = true -> map fst (cont_parts fs vs) = map e_is_fixed fs.
Proof.
  intros H%has_ty_fields_Forall2. unfold cont_parts.
  induction H as [|f x fs vs _ _ IH]; cbn [combine map fst snd]; congruence.
Qed.

Lemma rt_fields fs vs B :
  Forall2 rt_at fs vs -> Forall (fun f => rt_type f = true) fs ->
  (forall p, In p (cont_parts fs vs) -> len (snd p) <= B) -> B < two32 ->
  decode_all (map snd (cont_parts fs vs)) (map dec fs) = Ok vs.
Proof.
  unfold cont_parts. induction 1 as [|f x fs vs Hx _ IH]; intros Hrt Hb HB; [reflexivity|].
  inversion Hrt as [|? ? Hf Hrt']; subst. cbn [combine map decode_all decode_next fst snd] in *.
  rewrite Hx; [|exact Hf|eapply N.le_lt_trans; [apply (Hb (e_is_fixed f, enc f x)); now left|exact HB]].
  cbn [bind fst snd]. now rewrite (IH Hrt' (fun p Hp => Hb p (or_intror Hp)) HB).
Qed.

Lemma rt_container (L : LeafFacts) d fs vs :
  has_ty_fields fs vs = true -> Forall2 rt_at fs vs -> rt_at (TContainer d fs) (VCont vs).
Proof.
  intros Hv HF Hrt Hlen. apply ty_all_inv in Hrt as [_ Hrt].
  pose proof (wfb_facts L (TContainer d fs) (VCont vs)) as Hw. rewrite has_ty_container in Hw. specialize (Hw Hv).
  rewrite enc_container, (fixed_size_cont_parts L fs vs Hv) in *.
  assert (Hp : phys (assemble (fixed_size (cont_parts fs vs)) (cont_parts fs vs)))
    by (split; [exact Hw|unfold two32, usize_max in *; lia]).
  rewrite (dec_container_builder d fs _ Hp).
  rewrite (builder_build_assemble (cont_parts fs vs) (regs_of fs)).
  - cbn [bind]. rewrite (rt_fields fs vs _ HF Hrt (fun p => part_le_assemble _ _ p) Hlen). reflexivity.
  - unfold regs_of. now rewrite map_map, (cont_parts_fst fs vs Hv).
  - clear -L Hv. unfold regs_of, cont_parts. apply has_ty_fields_Forall2 in Hv.
    induction Hv as [|f x fs vs Hx _ IH]; cbn [combine map]; constructor; [|exact IH].
    exact (proj2 (size_facts L f x Hx)).
  - apply offsets_fit_bound. rewrite assemble_len in Hlen. exact Hlen.
  - exact Hw.
  - apply Hp.
Qed.

Lemma dec_legacy t bs :
  dec (TLegacyOpt t) bs =
  if len bs <? 4 then Err
  else if le_val (take 4 bs) =? 0 then (match drop 4 bs with [] => Ok VNone | _ => Err end)
  else if le_val (take 4 bs) =? 1 then omap VSome (dec t (drop 4 bs)) else Err.
Proof.
  cbn [dec]. unfold BYTES_PER_LENGTH_OFFSET, split_at. destruct (len bs <? 4) eqn:El; [reflexivity|].
  replace (4 <=? len bs) with true by lia. cbn [bind fst snd].
  rewrite <- (app_nil_r (take 4 bs)) at 1. rewrite read_offset_app; [reflexivity|].
  pose proof (len_take 4 bs ltac:(lia)) as Ht. unfold len in Ht. lia.
Qed.

Theorem legacy_short t bs : len bs < 4 -> dec (TLegacyOpt t) bs = Err.
Proof. intros H. rewrite dec_legacy. now replace (len bs <? 4) with true by lia. Qed.

Theorem legacy_selector t w body :
  length w = 4%nat ->
  dec (TLegacyOpt t) (w ++ body) =
  if le_val w =? 0 then (match body with [] => Ok VNone | _ => Err end)
  else if le_val w =? 1 then omap VSome (dec t body) else Err.
Proof.
  intros Hw. assert (Hl : len w = 4) by (unfold len; lia). rewrite dec_legacy, len_app, Hl.
  replace (4 + len body <? 4) with false by lia. now rewrite <- Hl, take_app_exact, drop_app_exact.
Qed.

Lemma dec_list_eq t bs :
  dec (TList t) bs = omap VList (dec_seq (d_is_fixed t) (d_fixed_len t) (dec t) bs).
Proof. reflexivity. Qed.
Lemma dec_set_eq t bs :
  dec (TSet t) bs = omap (fun l => VList (collect_entries false l)) (dec_seq (d_is_fixed t) (d_fixed_len t) (dec t) bs).
Proof. reflexivity. Qed.

Lemma lv_items_collect {A B} (d : bytes -> outcome B) (d' : bytes -> outcome A) (g : A -> B) bs first n :
  (forall s, d s = omap g (d' s)) -> forall fuel i off,
  lv_items d bs first n fuel i off
  = (omap (map g) (fst (lv_items d' bs first n fuel i off)), snd (lv_items d' bs first n fuel i off)).
Proof.
  intros H. induction fuel as [|fuel IH]; intros i off; cbn [lv_items]; [reflexivity|].
  destruct (if i =? n then _ else _) as [[s o']| |]; try reflexivity.
  rewrite H, IH. destruct (d' s); cbn [omap fst snd]; try reflexivity.
  destruct (fst (lv_items d' bs first n fuel (i + 1) o')); reflexivity.
Qed.

Lemma decode_list_var_collect {A B} (d : bytes -> outcome B) (d' : bytes -> outcome A) (g : A -> B) bs mx :
  (forall s, d s = omap g (d' s)) ->
  decode_list_var d CVec bs mx = omap (map g) (decode_list_var d' CVec bs mx).
Proof.
  intros H. unfold decode_list_var, decode_list_var_full. destruct bs as [|b bs]; [reflexivity|].
  destruct (read_offset (b :: bs)); try reflexivity.
  destruct (sanitize_offset _ _ _ _); try reflexivity.
  destruct (_ || _); try reflexivity. destruct (is_some_and mx _); [reflexivity|]. cbv zeta.
  rewrite (lv_items_collect d d' g _ _ _ H). cbn [fst].
  destruct (fst (lv_items d' _ _ _ _ _ _)); reflexivity.
Qed.

Lemma dec_seq_collect {A B} f k (d : bytes -> outcome B) (d' : bytes -> outcome A) (g : A -> B) bs :
  (forall s, d s = omap g (d' s)) -> dec_seq f k d bs = omap (map g) (dec_seq f k d' bs).
Proof.
  intros H. unfold dec_seq. destruct bs as [|b bs]; [reflexivity|].
  destruct f; [|now apply decode_list_var_collect].
  destruct (k =? 0); [reflexivity|]. now apply mapM_collect.
Qed.

Lemma dec_seq_ext {A} (d1 d2 : bytes -> outcome A) f k bs :
  (forall s, d1 s = d2 s) -> dec_seq f k d1 bs = dec_seq f k d2 bs.
Proof.
  intros H. rewrite (dec_seq_collect f k d1 d2 (fun x => x)) by (intros s; rewrite H; now destruct (d2 s)).
  destruct (dec_seq f k d2 bs); cbn [omap]; now rewrite ?map_id.
Qed.

Lemma dec_map_eq k v bs :
  dec (TMap k v) bs =
  omap (fun l => VList (collect_entries true l))
       (dec_seq (d_is_fixed (TContainer false [k; v])) (d_fixed_len (TContainer false [k; v]))
                (dec (TContainer false [k; v])) bs).
Proof.
  remember (TContainer false [k; v]) as C eqn:EC. cbn [dec]. subst C. f_equal.
  rewrite d_is_fixed_container, d_fixed_len_container. cbn [forallb map sumN].
  rewrite !andb_true_r, N.add_0_r.
  apply dec_seq_ext. intros s. rewrite dec_container. cbn [andb].
  unfold regs_of. cbn [map]. destruct (builder_build _ s); reflexivity.
Qed.

Theorem rt_facts (L : LeafFacts) t : rt_ok t.
Proof.
  intros Hrt v Hv. revert Hrt. change (rt_at t v). revert t v Hv. apply (typed_ind rt_at); unfold rt_at.
  - (* TUint *) intros k n Hn _ _. unfold enc. cbn [append app dec]. unfold len.
    rewrite le_bytes_length, N.eqb_refl, le_val_le_bytes; [reflexivity|]. now rewrite N.pow_mul_r in Hn.
  - now intros [] _ _.
  - (* TNonZero *) intros n H0 H64 _ _. unfold enc. cbn [append app dec]. unfold len. rewrite le_bytes_length.
    cbn [N.of_nat N.eqb Pos.eqb Pos.of_succ_nat Pos.succ]. rewrite le_val_le_bytes by exact H64.
    now replace (n =? 0) with false by lia.
  - (* TBytesN *) intros n bs _ Hl _ _. unfold enc. cbn [append app dec]. unfold len. now rewrite Hl, N.eqb_refl.
  - reflexivity.
  - (* TList *) intros t vs Hv IH Hrt Hlen. destruct (ty_all_inv _ _ Hrt) as [Hn Hrt'].
    unfold node_rt in Hn. apply andb_prop in Hn as [_ Hn]. apply negb_true_iff in Hn.
    rewrite enc_list in *. cbn [dec]. now rewrite (rt_seq L t vs IH Hrt' Hn Hv Hlen).
  - (* TSet *) intros t vs Hv Hs IH Hrt Hlen. destruct (ty_all_inv _ _ Hrt) as [Hn Hrt'].
    unfold node_rt in Hn. apply andb_prop in Hn as [Hk Hn]. apply negb_true_iff in Hn. cbn [node_wf] in Hk.
    rewrite enc_set in *. cbn [dec]. rewrite (rt_seq L t vs IH Hrt' Hn Hv Hlen). cbn [omap].
    rewrite (collect_sorted t false vs Hk); [reflexivity| |exact Hs].
    apply Forall_forall. intros e He. rewrite forallb_forall in Hv. now apply Hv.
  - (* TMap: the list of its entries, then [collect_entries] on a sorted list *)
    intros k v es Hv IH Hrt Hlen. destruct (ty_all_inv _ _ Hrt) as [Hn [Hrt1 Hrt2]].
    unfold node_rt in Hn. apply andb_prop in Hn as [Hk Hn]. cbn [node_wf] in Hk.
    assert (Hrl : rt_type (TList (TContainer false [k; v])) = true)
      by (unfold rt_type, node_rt in *; cbn [ty_all node_wf andb]; now rewrite Hn, Hrt1, Hrt2).
    rewrite (enc_map_typed _ _ _ Hv) in *. rewrite dec_map_eq. specialize (IH Hrl Hlen).
    rewrite dec_list_eq in IH. apply omap_ok in IH as (es' & -> & [= <-]). cbn [omap].
    pose proof (has_ty_map_entries _ _ _ Hv) as Hes. cbn [has_ty] in Hv. apply andb_prop in Hv as [_ Hs].
    rewrite (collect_sorted k true es Hk); [reflexivity| |exact Hs].
    eapply Forall_impl; [|exact Hes]. now intros e (a & c & -> & Ha & _).
  - reflexivity.
  - (* TOption *) intros t x _ IH Hrt Hlen. destruct (ty_all_inv _ _ Hrt) as [_ Hrt'].
    rewrite enc_option_some in *. rewrite dec_option_selector. cbn [N.eqb Pos.eqb].
    rewrite len_cons in Hlen. now rewrite (IH Hrt') by lia.
  - intros d fs vs Hv IH. now apply (rt_container L).
  - (* TUnion *) intros ts i t x Hn E _ IH Hrt Hlen. apply ty_all_inv in Hrt as [_ Hrt]. rewrite Forall_forall in Hrt.
    assert (Hi : (i < length ts)%nat) by (apply nth_error_Some; congruence).
    rewrite enc_union, E in *. rewrite dec_union_selector. replace (N.of_nat i <=? 127) with true by lia.
    rewrite Nat2N.id, E. rewrite len_cons in Hlen. now rewrite (IH (Hrt t (nth_error_In _ _ E))) by lia.
  - (* TTag *) intros n i Hi _ _ _. unfold enc. cbn [append app dec].
    replace (N.of_nat i <? N.of_nat n) with true by lia. now rewrite Nat2N.id.
  - (* TTransEnum *) intros ts i t x _ _ _ Hrt. now apply ty_all_inv in Hrt as [Hn _].
  - (* TWrap *) intros t x _ IH Hrt. exact (IH (proj2 (ty_all_inv _ _ Hrt))).
  - (* TBitVector *) intros n bits Hb _ _. unfold enc. cbn [append app dec].
    destruct (lf_bv_rt L n bits Hb) as (b & -> & Hi). cbn [omap]. now rewrite Hi.
  - intros n bits Hb _ _. unfold enc. cbn [append app dec].
    destruct (lf_bl_rt L n bits Hb) as (b & -> & Hi). cbn [omap]. now rewrite Hi.
  - intros bits H0 H8 _ _. unfold enc. cbn [append app dec].
    destruct (lf_bd_rt L bits H0 H8) as (b & -> & Hi). cbn [omap]. now rewrite Hi.
  - reflexivity.
  - (* TLegacyOpt *) intros t x _ IH Hrt Hlen. destruct (ty_all_inv _ _ Hrt) as [_ Hrt'].
    rewrite enc_legacy_some, len_app, encode_length_len in *.
    rewrite legacy_selector by apply encode_length_length. cbn [le_val encode_length le_bytes N.eqb].
    now rewrite (IH Hrt') by lia.
Qed.
