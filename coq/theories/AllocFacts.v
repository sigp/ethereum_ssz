(** * The allocation account [units] is linear in the input length (C06). *)
From SSZ Require Import Base BaseFacts Offsets OffsetsFacts Builder Layout LayoutFacts BuilderFacts
     Types Codec CodecUnfold ListDecFacts Canon NoPanic Alloc.
From Coq Require Import ZArith ZifyN ZifyNat ZifyBool.
Open Scope N_scope.

(** [pieces l bs]: the slices [l], put end to end, lie somewhere in [bs]: they are consecutive,
    disjoint pieces of it. *)
Definition pieces (l : list bytes) (bs : bytes) : Prop :=
  exists a rest, drop a bs = concat l ++ rest.

Lemma pieces_nil bs : pieces [] bs.
Proof. exists 0, bs. reflexivity. Qed.

Lemma pieces_sum l bs : pieces l bs -> sumN (map len l) <= len bs.
Proof.
  intros (a & rest & E). apply (f_equal len) in E. rewrite len_drop, len_app, len_concat in E. lia.
Qed.

Lemma pieces_slices (Q : bytes -> Prop) l bs : slice_closed Q -> Q bs -> pieces l bs -> Forall Q l.
Proof.
  intros Hsc HQ (a & rest & E). apply (concat_slices Q _ Hsc).
  rewrite <- (take_app_exact (concat l) rest), <- E. apply Hsc, HQ.
Qed.

Lemma lv_walk_S bs first n fuel i offset :
  lv_walk bs first n (S fuel) i offset =
  match lv_sao bs first n i offset with
  | Ok (s, off') => s :: if i =? n then [] else lv_walk bs first n fuel (i + 1) off'
  | _ => []
  end.
Proof.
  cbn [lv_walk]. unfold lv_sao. destruct (i =? n).
  - destruct (get_from bs offset); reflexivity.
  - destruct (index_from bs (i * BYTES_PER_LENGTH_OFFSET)) as [rest| |]; try reflexivity. cbn [bind].
    destruct (read_offset rest) as [next| |]; try reflexivity. cbn [bind].
    destruct (sanitize_offset next (Some offset) (len bs) (Some first)) as [off'| |]; try reflexivity.
    cbn [bind]. destruct (get_range bs offset off'); reflexivity.
Qed.

Lemma lv_walk_prefix bs first n fuel : forall i offset,
  exists rest, drop offset bs = concat (lv_walk bs first n fuel i offset) ++ rest.
Proof.
  induction fuel as [|fuel IH]; intros i offset; [exists (drop offset bs); reflexivity|].
  remember (lv_walk bs first n (S fuel) i offset) as w eqn:Ew. rewrite lv_walk_S in Ew.
  destruct (lv_sao bs first n i offset) as [[s off']| |] eqn:Es; subst w;
    try (exists (drop offset bs); reflexivity).
  apply lv_sao_inv in Es as [(-> & _ & _ & ->) | (Hne & _ & _ & _ & Hle & Hoo & ->)].
  - exists []. rewrite N.eqb_refl. cbn [concat]. rewrite !app_nil_r. reflexivity.
  - apply N.eqb_neq in Hne. rewrite Hne. destruct (IH (i + 1) off') as (rest & E).
    exists rest. cbn [concat]. rewrite <- app_assoc, <- E. apply drop_slice; assumption.
Qed.

Lemma lv_alloc_cases bs :
  lv_alloc bs = (0, []) \/
  exists first, first <= len bs /\
    lv_alloc bs = (first / 4, lv_walk bs first (first / 4) (N.to_nat (first / 4)) 1 first).
Proof.
  unfold lv_alloc. destruct bs as [|b bs']; [left; reflexivity|]. set (bs := b :: bs').
  destruct (read_offset bs) as [first| |]; try (left; reflexivity).
  destruct (sanitize_offset first None (len bs) (Some first)) as [r| |] eqn:Es; try (left; reflexivity).
  apply sanitize_offset_first in Es as [_ Hf].
  destruct (negb _ || _); [left; reflexivity|]. right. exists first. split; [exact Hf|reflexivity].
Qed.

Lemma lv_alloc_pieces bs : pieces (snd (lv_alloc bs)) bs.
Proof.
  destruct (lv_alloc_cases bs) as [E|(first & _ & E)]; rewrite E; [apply pieces_nil|].
  exists first. apply lv_walk_prefix.
Qed.

Lemma lv_alloc_bound bs :
  fst (lv_alloc bs) <= len bs / 4 /\ sumN (map len (snd (lv_alloc bs))) <= len bs.
Proof.
  split; [|apply pieces_sum, lv_alloc_pieces].
  destruct (lv_alloc_cases bs) as [E|(first & Hf & E)]; rewrite E; [apply N.le_0_l|].
  apply N.div_le_mono; [discriminate|exact Hf].
Qed.

Lemma chunks_fuel_count fuel n bs :
  (0 < n)%nat -> (length (chunks_fuel fuel n bs) <= length bs)%nat.
Proof.
  intros Hn. revert bs. induction fuel as [|f IH]; intros bs; cbn [chunks_fuel length]; [lia|].
  destruct bs as [|b bs']; cbn [length]; [lia|].
  specialize (IH (skipn n (b :: bs'))). rewrite skipn_length in IH. cbn [length] in IH. lia.
Qed.

Lemma seq_alloc_pieces f k bs : pieces (snd (seq_alloc f k bs)) bs.
Proof.
  unfold seq_alloc. destruct bs as [|b bs']; [apply pieces_nil|]. destruct f; [|apply lv_alloc_pieces].
  destruct (k =? 0) eqn:Ek; [apply pieces_nil|].
  exists 0, []. cbn [snd]. rewrite chunks_concat, app_nil_r by lia. reflexivity.
Qed.

Lemma seq_alloc_bound f k bs :
  fst (seq_alloc f k bs) <= len bs /\ sumN (map len (snd (seq_alloc f k bs))) <= len bs.
Proof.
  split; [|apply pieces_sum, seq_alloc_pieces].
  unfold seq_alloc. destruct bs as [|b bs']; [apply N.le_0_l|]. set (bs := b :: bs'). destruct f.
  - destruct (k =? 0) eqn:Ek; [apply N.le_0_l|]. cbn [fst]. unfold chunks, len.
    pose proof (chunks_fuel_count (length bs) (N.to_nat k) bs). lia.
  - etransitivity; [apply lv_alloc_bound|]. apply N.div_le_upper_bound; lia.
Qed.

Lemma parts_len_le (parts : list part) :
  sumN (map len (map snd parts)) <=
  sumN (map (fun p : part => if fst p then len (snd p) else 4 + len (snd p)) parts).
Proof.
  induction parts as [|[[|] b] r IH]; cbn [map sumN fst snd]; lia.
Qed.

Lemma builder_items_sum regs bs items : wfb bs -> len bs <= usize_max ->
  builder_build regs bs = Ok items -> sumN (map len items) <= len bs.
Proof.
  intros Hw Hm Hb. apply (builder_build_tiles _ _ _ Hw Hm) in Hb as (HL & _ & _ & ->).
  rewrite asm_len, <- (map_snd_combine' (map fst regs) items) at 1 by (rewrite map_length; exact HL).
  apply parts_len_le.
Qed.

(** ** The local fixpoints of [units] and [ufactor], by name
    Where the named function is the local fixpoint itself the equation holds by conversion. *)
Fixpoint units_split (fs : list ty) (rest : bytes) : N :=
  match fs with
  | [] => 0
  | f :: fr => units f (take (d_fixed_len f) rest) + units_split fr (drop (d_fixed_len f) rest)
  end.

Fixpoint units_fields (fs : list ty) (items : list bytes) : N :=
  match fs, items with
  | f :: fr, s :: ir => units f s + units_fields fr ir
  | _, _ => 0
  end.

Fixpoint umax (fs : list ty) : N :=
  match fs with [] => 0 | f :: r => N.max (ufactor f) (umax r) end.

Fixpoint usum (fs : list ty) : N :=
  match fs with [] => 0 | f :: r => ufactor f + usum r end.

Lemma units_container d fs bs :
  units (TContainer d fs) bs =
  if d && forallb d_is_fixed fs then units_split fs bs
  else match builder_build (regs_of fs) bs with
       | Ok items => units_fields fs items
       | _ => 0
       end.
Proof. reflexivity. Qed.

Lemma units_union ts bs :
  units (TUnion ts) bs =
  match bs with
  | s :: body => match nth_error ts (N.to_nat s) with Some t => units t body | None => 0 end
  | [] => 0
  end.
Proof.
  cbn [units]. destruct bs as [|s body]; [reflexivity|].
  generalize (N.to_nat s) as j.
  induction ts as [|t r IH]; intros [|j]; cbn [nth_error]; try reflexivity. apply IH.
Qed.

Lemma units_trans ts bs : units (TTransEnum ts) bs = sumN (map (fun t => units t bs) ts).
Proof.
  cbn [units]. induction ts as [|t r IH]; cbn [map sumN]; [reflexivity|]. now rewrite IH.
Qed.

Lemma ufactor_container d fs : ufactor (TContainer d fs) = umax fs.
Proof. reflexivity. Qed.
Lemma ufactor_union fs : ufactor (TUnion fs) = umax fs.
Proof. reflexivity. Qed.
Lemma ufactor_trans fs : ufactor (TTransEnum fs) = usum fs.
Proof. reflexivity. Qed.

Definition lin (t : ty) : Prop := forall bs, phys bs -> units t bs <= ufactor t * len bs.

(** Two pieces of an input, each charged at its own rate, cost at most the larger rate on the whole. *)
Lemma max_lin a b x y u v t :
  u <= a * x -> v <= b * y -> x + y <= t -> u + v <= N.max a b * t.
Proof.
  intros Hu Hv Ht. transitivity (N.max a b * (x + y)); [|apply N.mul_le_mono_l, Ht].
  rewrite N.mul_add_distr_l.
  apply N.add_le_mono; (etransitivity; [eassumption|apply N.mul_le_mono_r; lia]).
Qed.

Lemma sum_lin (u : bytes -> N) (c : N) (l : list bytes) :
  (forall s, phys s -> u s <= c * len s) -> Forall phys l ->
  sumN (map u l) <= c * sumN (map len l).
Proof.
  intros Hu Hl. induction Hl as [|s l Hs _ IH]; cbn [map sumN]; [lia|].
  specialize (Hu s Hs). rewrite N.mul_add_distr_l. lia.
Qed.

Lemma umax_in f fs : In f fs -> ufactor f <= umax fs.
Proof.
  induction fs as [|g r IH]; [intros []|]. cbn [umax]. intros [->|H]; [lia|]. specialize (IH H). lia.
Qed.

Lemma units_split_lin fs : Forall lin fs ->
  forall rest, phys rest -> units_split fs rest <= umax fs * len rest.
Proof.
  induction 1 as [|f r Hf _ IH]; intros rest Hp; cbn [units_split umax]; [lia|].
  eapply max_lin; [apply Hf, phys_take, Hp|apply IH, phys_drop, Hp|].
  rewrite <- len_app, take_drop. apply N.le_refl.
Qed.

Lemma units_fields_lin fs : Forall lin fs ->
  forall items, Forall phys items -> units_fields fs items <= umax fs * sumN (map len items).
Proof.
  induction 1 as [|f r Hf _ IH]; intros items Hp; cbn [units_fields umax]; [lia|].
  destruct Hp as [|s ir Hs Hir]; [lia|]. cbn [map sumN].
  eapply max_lin; [apply Hf, Hs|apply IH, Hir|apply N.le_refl].
Qed.

Lemma lin_container d fs : Forall lin fs -> lin (TContainer d fs).
Proof.
  intros HF bs Hp. rewrite units_container, ufactor_container.
  destruct (d && forallb d_is_fixed fs).
  - apply units_split_lin; assumption.
  - destruct (builder_build (regs_of fs) bs) as [items| |] eqn:Eb; try apply N.le_0_l.
    etransitivity; [apply units_fields_lin; [exact HF|eapply builder_items_phys; eassumption]|].
    apply N.mul_le_mono_l. exact (builder_items_sum _ _ _ (proj1 Hp) (proj2 Hp) Eb).
Qed.

Lemma lin_union ts : Forall lin ts -> lin (TUnion ts).
Proof.
  intros HF bs Hp. rewrite units_union, ufactor_union.
  destruct bs as [|s body]; [apply N.le_0_l|].
  destruct (nth_error ts (N.to_nat s)) as [t|] eqn:E; [|apply N.le_0_l].
  apply nth_error_In in E. rewrite Forall_forall in HF.
  etransitivity; [exact (HF t E body (phys_cons _ _ Hp))|].
  apply N.mul_le_mono; [apply umax_in, E|]. rewrite len_cons. apply N.le_add_r.
Qed.

Lemma lin_trans ts : Forall lin ts -> lin (TTransEnum ts).
Proof.
  intros HF bs Hp. rewrite units_trans, ufactor_trans.
  induction HF as [|t r Ht _ IH]; cbn [map sumN usum]; [lia|].
  specialize (Ht bs Hp). rewrite N.mul_add_distr_r. lia.
Qed.

(** A sequence: one unit per element reserved or collected, plus what the items cost. *)
Lemma lin_seq (u : bytes -> N) c f k bs :
  (forall s, phys s -> u s <= c * len s) -> phys bs ->
  fst (seq_alloc f k bs) + sumN (map u (snd (seq_alloc f k bs))) <= (1 + c) * len bs.
Proof.
  intros Hu Hp. destruct (seq_alloc_bound f k bs) as [H1 H2].
  pose proof (sum_lin u c _ Hu (pieces_slices phys _ bs phys_slice_closed Hp (seq_alloc_pieces f k bs))) as H3.
  apply (N.mul_le_mono_l _ _ c) in H2.
  rewrite N.mul_add_distr_r. lia.
Qed.

Lemma lin_entry k v s : lin k -> lin v -> phys s ->
  match builder_build [(d_is_fixed k, d_fixed_len k); (d_is_fixed v, d_fixed_len v)] s with
  | Ok [sk; sv] => units k sk + units v sv
  | _ => 0
  end <= N.max (ufactor k) (ufactor v) * len s.
Proof.
  intros Hk Hv Hp.
  destruct (builder_build _ s) as [items| |] eqn:Eb; try apply N.le_0_l.
  destruct items as [|sk [|sv [|x r]]]; try apply N.le_0_l.
  pose proof (builder_items_phys _ _ _ Hp Eb) as Hip.
  pose proof (builder_items_sum _ _ _ (proj1 Hp) (proj2 Hp) Eb) as Hs. cbn [map sumN] in Hs.
  inversion Hip as [|? ? Hpk Hip']; subst. inversion Hip' as [|? ? Hpv _]; subst.
  eapply max_lin; [apply Hk, Hpk|apply Hv, Hpv|lia].
Qed.

Theorem units_lin t : lin t.
Proof.
  induction t using ty_ind'; try (intros bs Hp; cbn [units ufactor]; lia).
  - (* TList *) intros bs Hp. cbn [units ufactor]. apply lin_seq; assumption.
  - (* TSet *) intros bs Hp. cbn [units ufactor]. apply lin_seq; assumption.
  - (* TMap *) intros bs Hp. cbn [units ufactor]. apply lin_seq; [|exact Hp].
    intros s. apply lin_entry; assumption.
  - (* TOption *) intros bs Hp. cbn [units ufactor]. destruct bs as [|s body]; [lia|].
    destruct (s =? 1); [|lia].
    etransitivity; [exact (IHt body (phys_cons _ _ Hp))|].
    apply N.mul_le_mono_l. rewrite len_cons. apply N.le_add_r.
  - (* TContainer *) apply lin_container; assumption.
  - (* TUnion *) apply lin_union; assumption.
  - (* TTransEnum *) apply lin_trans; assumption.
  - (* TWrap *) intros bs Hp. cbn [units ufactor]. apply IHt; assumption.
  - (* TLegacyOpt *) intros bs Hp. cbn [units ufactor].
    etransitivity; [exact (IHt _ (phys_drop BYTES_PER_LENGTH_OFFSET bs Hp))|].
    apply N.mul_le_mono_l. rewrite len_drop. apply N.le_sub_l.
Qed.

Theorem units_linear t bs : wfb bs -> len bs <= usize_max -> units t bs <= ufactor t * len bs.
Proof. intros Hw Hm. apply units_lin. split; assumption. Qed.
