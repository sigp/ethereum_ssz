(** * GenEquivDerive3: the modules written by [four_byte_option_impl!] (C17) and a container whose
    fields go through them ([#[ssz(with = ..)]], C08), as rustc expands them against /repo. *)
From SSZ Require Import Base RustSem Offsets Encoder Builder Types Codec CodecUnfold BaseFacts OffsetsFacts
     Generated GenEquiv GenEquivDec GenEquivEnc GenProps GeneratedDerive GenEquivDerive GenEquivDerive2.
From Coq Require Import ZArith ZifyN ZifyBool ZifyNat Lia.
Open Scope N_scope.

Definition T_Lu64 : ty := TLegacyOpt (TUint 8).
Definition T_Lvec : ty := TLegacyOpt (TList (TUint 1)).
Definition v_opt_u64 (o : option N) : val := match o with None => VNone | Some x => VSome (VUint x) end.
Definition v_opt_vec (o : option (list N)) : val := match o with None => VNone | Some l => VSome (v_list l) end.

Theorem derive_legacy_metadata :
  GenD.legacy_u64__encode__is_ssz_fixed_len = Ok (e_is_fixed T_Lu64) /\ GenD.legacy_u64__encode__ssz_fixed_len = Ok (e_fixed_len T_Lu64) /\
  GenD.legacy_u64__decode__is_ssz_fixed_len = Ok (d_is_fixed T_Lu64) /\ GenD.legacy_u64__decode__ssz_fixed_len = Ok (d_fixed_len T_Lu64) /\
  GenD.legacy_vec__encode__is_ssz_fixed_len = Ok (e_is_fixed T_Lvec) /\ GenD.legacy_vec__encode__ssz_fixed_len = Ok (e_fixed_len T_Lvec) /\
  GenD.legacy_vec__decode__is_ssz_fixed_len = Ok (d_is_fixed T_Lvec) /\ GenD.legacy_vec__decode__ssz_fixed_len = Ok (d_fixed_len T_Lvec).
Proof. repeat split; vm_compute; reflexivity. Qed.

Theorem derive_legacy_u64_ssz_append o buf :
  GenD.legacy_u64__encode__ssz_append o buf = Ok (append T_Lu64 (v_opt_u64 o) buf).
Proof.
  destruct o as [x|]; unfold GenD.legacy_u64__encode__ssz_append; rewrite gen_encode_four_byte_union_selector_eq; reflexivity.
Qed.
Theorem derive_legacy_u64_as_ssz_bytes o :
  GenD.legacy_u64__encode__as_ssz_bytes o = Ok (enc T_Lu64 (v_opt_u64 o)).
Proof. unfold GenD.legacy_u64__encode__as_ssz_bytes. rewrite derive_legacy_u64_ssz_append. reflexivity. Qed.
Theorem derive_legacy_u64_ssz_bytes_len o :
  GenD.legacy_u64__encode__ssz_bytes_len o = Ok (bytes_len T_Lu64 (v_opt_u64 o)).
Proof. destruct o; reflexivity. Qed.

Lemma legacy_from_shape {A} (d : bytes -> outcome A) (inj : A -> val) t bs :
  (forall b, omap inj (d b) = dec t b) ->
  omap (fun o : option A => match o with None => VNone | Some x => VSome (inj x) end)
    (if llen bs <? Gen.BYTES_PER_LENGTH_OFFSET then Err
     else
       do t_1 <- split_at_n bs Gen.BYTES_PER_LENGTH_OFFSET;
       let '(index_bytes, value_bytes) := t_1 in
       do q_2 <- Gen.read_four_byte_union_selector index_bytes;
       if q_2 =? 0 then (if llen value_bytes =? 0 then Ok None else Err)
       else if q_2 =? 1 then (do q_3 <- d value_bytes; Ok (Some q_3)) else Err)
  = dec (TLegacyOpt t) bs.
Proof.
  intro Hd. cbn [dec]. rewrite llen_len, gen_BYTES_PER_LENGTH_OFFSET.
  destruct (len bs <? BYTES_PER_LENGTH_OFFSET); [reflexivity|].
  rewrite split_at_n_eq. destruct (split_at bs BYTES_PER_LENGTH_OFFSET) as [[ib vb]| |]; cbn [bind fst snd omap]; try reflexivity.
  rewrite gen_read_four_byte_union_selector_eq.
  destruct (read_offset ib) as [idx| |]; cbn [bind omap]; try reflexivity.
  destruct (idx =? 0).
  - destruct vb as [|x r]; [reflexivity|]. unfold llen. cbn [length].
    replace (N.of_nat (S (length r)) =? 0) with false by (symmetry; apply N.eqb_neq; lia). reflexivity.
  - destruct (idx =? 1); [|reflexivity]. rewrite <- Hd. destruct (d vb); reflexivity.
Qed.

Theorem derive_legacy_u64_from_ssz_bytes bs :
  omap v_opt_u64 (GenD.legacy_u64__decode__from_ssz_bytes bs) = dec T_Lu64 bs.
Proof. exact (legacy_from_shape Gen.u64_from_ssz_bytes VUint (TUint 8) bs gen_u64_from_ssz_bytes_eq). Qed.

Theorem derive_legacy_vec_ssz_append o buf :
  (match o with Some l => llen l <= usize_max | None => True end) ->
  GenD.legacy_vec__encode__ssz_append o buf = Ok (append T_Lvec (v_opt_vec o) buf).
Proof.
  intro H. destruct o as [l|]; unfold GenD.legacy_vec__encode__ssz_append; rewrite gen_encode_four_byte_union_selector_eq; [|reflexivity].
  leaf_meta. change (8 / 8) with 1. rewrite vec_u8_append by exact H. reflexivity.
Qed.
Theorem derive_legacy_vec_as_ssz_bytes o :
  (match o with Some l => llen l <= usize_max | None => True end) ->
  GenD.legacy_vec__encode__as_ssz_bytes o = Ok (enc T_Lvec (v_opt_vec o)).
Proof. intro H. unfold GenD.legacy_vec__encode__as_ssz_bytes. rewrite derive_legacy_vec_ssz_append by exact H. reflexivity. Qed.
Theorem derive_legacy_vec_ssz_bytes_len o :
  (match o with Some l => llen l + 4 <= usize_max | None => True end) ->
  GenD.legacy_vec__encode__ssz_bytes_len o = Ok (bytes_len T_Lvec (v_opt_vec o)).
Proof.
  intro H. destruct o as [l|]; [|reflexivity]. unfold GenD.legacy_vec__encode__ssz_bytes_len. leaf_meta. change (8 / 8) with 1.
  rewrite vec_u8_bytes_len by lia. cbn [bind].
  change (bytes_len T_Lvec (v_opt_vec (Some l))) with (bytes_len (TList (TUint 1)) (v_list l) + BYTES_PER_LENGTH_OFFSET).
  rewrite bytes_len_list_uint, gen_BYTES_PER_LENGTH_OFFSET, usize_add_ok by (unfold BYTES_PER_LENGTH_OFFSET; lia). reflexivity.
Qed.
Theorem derive_legacy_vec_from_ssz_bytes bs :
  omap v_opt_vec (GenD.legacy_vec__decode__from_ssz_bytes bs) = dec T_Lvec bs.
Proof.
  unfold GenD.legacy_vec__decode__from_ssz_bytes. leaf_meta.
  exact (legacy_from_shape (Gen.vec_from_ssz_bytes true 1 Gen.u8_from_ssz_bytes) v_list (TList (TUint 1)) bs vec_u8_from).
Qed.

(** ** [WithLegacy]: a container whose second and third field are encoded by the modules above *)
Definition T_WithLegacy : ty := TContainer true [TUint 2; T_Lu64; T_Lvec].
Definition v_WithLegacy (r : GenD.WithLegacy) : val :=
  VCont [VUint (GenD.WithLegacy_a r); v_opt_u64 (GenD.WithLegacy_b r); v_opt_vec (GenD.WithLegacy_c r)].

Theorem derive_WithLegacy_metadata :
  GenD.WithLegacy_enc_is_ssz_fixed_len = Ok (e_is_fixed T_WithLegacy) /\ GenD.WithLegacy_enc_ssz_fixed_len = Ok (e_fixed_len T_WithLegacy) /\
  GenD.WithLegacy_dec_is_ssz_fixed_len = Ok (d_is_fixed T_WithLegacy) /\ GenD.WithLegacy_dec_ssz_fixed_len = Ok (d_fixed_len T_WithLegacy).
Proof. repeat split; vm_compute; reflexivity. Qed.

Lemma len_enc_Lu64 o : len (enc T_Lu64 (v_opt_u64 o)) <= 12.
Proof. destruct o; vm_compute; discriminate. Qed.

Theorem derive_WithLegacy_ssz_append r buf :
  (match GenD.WithLegacy_c r with Some l => llen l <= usize_max | None => True end) ->
  GenD.WithLegacy_ssz_append r buf = Ok (append T_WithLegacy (v_WithLegacy r) buf).
Proof.
  intro H. unfold GenD.WithLegacy_ssz_append. leaf_meta.
  apply (container_append true [TUint 2; T_Lu64; T_Lvec]
           [VUint (GenD.WithLegacy_a r); v_opt_u64 (GenD.WithLegacy_b r); v_opt_vec (GenD.WithLegacy_c r)]
           [put true Gen.u16_ssz_append (GenD.WithLegacy_a r);
            (* [encoder.append_parameterized(is_fixed, |buf| module::encode::ssz_append(&self.f, buf))] *)
            fun e => Gen.encoder_append e false (GenD.legacy_u64__encode__ssz_append (GenD.WithLegacy_b r));
            fun e => Gen.encoder_append e false (GenD.legacy_vec__encode__ssz_append (GenD.WithLegacy_c r))] buf).
  - repeat constructor; [apply put_as | apply encoder_append_as | apply encoder_append_as]; intro;
      [reflexivity | apply derive_legacy_u64_ssz_append | apply derive_legacy_vec_ssz_append; exact H].
  - change (sumN (map e_fixed_len _)) with 10. cbn [map sumN combine removelast fst snd]. unfold var_len. cbn [fst snd].
    change (e_is_fixed (TUint 2)) with true. change (e_is_fixed T_Lu64) with false. cbv iota.
    pose proof (len_enc_Lu64 (GenD.WithLegacy_b r)). pose proof usize_max_val. lia.
Qed.

Theorem derive_WithLegacy_ssz_bytes_len r :
  (match GenD.WithLegacy_c r with Some l => llen l + 26 <= usize_max | None => True end) ->
  GenD.WithLegacy_ssz_bytes_len r = Ok (bytes_len T_WithLegacy (v_WithLegacy r)).
Proof.
  intro H. unfold GenD.WithLegacy_ssz_bytes_len.
  change GenD.WithLegacy_enc_is_ssz_fixed_len with (Ok false : outcome bool). leaf_meta.
  rewrite derive_legacy_u64_ssz_bytes_len. rewrite derive_legacy_vec_ssz_bytes_len by (destruct (GenD.WithLegacy_c r); [lia | exact I]).
  apply (container_bytes_len true [TUint 2; T_Lu64; T_Lvec]
           [VUint (GenD.WithLegacy_a r); v_opt_u64 (GenD.WithLegacy_b r); v_opt_vec (GenD.WithLegacy_c r)] eq_refl).
  cbn [map sumN combine fst snd]. unfold field_len.
  change (e_is_fixed (TUint 2)) with true. change (e_is_fixed T_Lu64) with false. change (e_is_fixed T_Lvec) with false.
  change (e_fixed_len (TUint 2)) with 2. cbv iota. unfold BYTES_PER_LENGTH_OFFSET. pose proof usize_max_val as UM.
  assert (HB : bytes_len T_Lu64 (v_opt_u64 (GenD.WithLegacy_b r)) <= 12) by (destruct (GenD.WithLegacy_b r); vm_compute; discriminate).
  destruct (GenD.WithLegacy_c r) as [l|]; [|change (bytes_len T_Lvec (v_opt_vec None)) with 4; lia].
  change (bytes_len T_Lvec (v_opt_vec (Some l))) with (bytes_len (TList (TUint 1)) (v_list l) + 4).
  rewrite bytes_len_list_uint. lia.
Qed.

(** registration through [register_type_parameterized], decoding through [decode_next_with] *)
Lemma reg_steps_eq {R} steps regs :
  Forall2 (fun step r => forall b, step b = Gen.builder_register_type (fst r) (snd r) b) steps regs ->
  forall b (k : Gen.SszDecoderBuilder -> outcome R), step_chain steps b k = reg_chain regs b k.
Proof.
  induction 1 as [|step [f l] steps regs Hs _ IH]; intros b k; cbn [step_chain reg_chain]; [reflexivity|].
  rewrite Hs. cbn [fst snd]. destruct (Gen.builder_register_type f l b); cbn [bind]; [apply IH | reflexivity | reflexivity].
Qed.

Lemma builder_register_is_type f l b : Gen.builder_register b f l = Gen.builder_register_type f l b.
Proof. unfold Gen.builder_register_type. destruct (Gen.builder_register b f l); reflexivity. Qed.

Lemma builder_path_steps {R} ts steps bs (k : Gen.SszDecoder -> outcome R) (inj : R -> val) :
  Forall2 (fun step r => forall b, step b = Gen.builder_register_type (fst r) (snd r) b) steps (regs_of ts) ->
  forallb d_is_fixed ts = false ->
  (forall items, omap inj (k {| Gen.SszDecoder_items := items |}) = do xs <- decode_all items (map dec ts); Ok (VCont xs)) ->
  omap inj (do b0 <- Gen.builder_new bs; step_chain steps b0 (fun b => do d <- Gen.builder_build b; k d))
  = dec (TContainer true ts) bs.
Proof.
  intros Hs Hf Hk. rewrite <- (builder_path true ts bs k inj Hf Hk). unfold Gen.builder_new. cbn [bind]. f_equal.
  apply (reg_steps_eq _ _ Hs).
Qed.

Definition decode_next_with_step {A R} (inj : A -> val) t (D : bytes -> outcome A) (injR : R -> val) ds items k k' :=
  @decode_step A R inj (dec t) D injR ds items _ k k' (gen_decoder_decode_next_with_eq items D).

Theorem derive_WithLegacy_from_ssz_bytes bs :
  omap v_WithLegacy (GenD.WithLegacy_from_ssz_bytes bs) = dec T_WithLegacy bs.
Proof.
  unfold GenD.WithLegacy_from_ssz_bytes.
  change GenD.WithLegacy_dec_is_ssz_fixed_len with (Ok false : outcome bool).
  unfold GenD.legacy_u64__decode__is_ssz_fixed_len, GenD.legacy_u64__decode__ssz_fixed_len,
    GenD.legacy_vec__decode__is_ssz_fixed_len, GenD.legacy_vec__decode__ssz_fixed_len. leaf_meta.
  apply (builder_path_steps [TUint 2; T_Lu64; T_Lvec]
           [Gen.builder_register_type true 2; fun b => Gen.builder_register b false 4; fun b => Gen.builder_register b false 4]).
  - repeat constructor; intro; apply builder_register_is_type.
  - reflexivity.
  - intro items.
    apply (decode_next_step VUint (TUint 2)); [exact gen_u16_from_ssz_bytes_eq|]. intros a its.
    apply (decode_next_with_step v_opt_u64 T_Lu64); [exact derive_legacy_u64_from_ssz_bytes|]. intros b its1.
    apply (decode_next_with_step v_opt_vec T_Lvec); [exact derive_legacy_vec_from_ssz_bytes|]. intros c its2.
    reflexivity.
Qed.

Print Assumptions derive_legacy_metadata.
Print Assumptions derive_legacy_u64_ssz_append.
Print Assumptions derive_legacy_u64_as_ssz_bytes.
Print Assumptions derive_legacy_u64_ssz_bytes_len.
Print Assumptions derive_legacy_u64_from_ssz_bytes.
Print Assumptions derive_legacy_vec_ssz_append.
Print Assumptions derive_legacy_vec_as_ssz_bytes.
Print Assumptions derive_legacy_vec_ssz_bytes_len.
Print Assumptions derive_legacy_vec_from_ssz_bytes.
Print Assumptions derive_WithLegacy_metadata.
Print Assumptions derive_WithLegacy_ssz_append.
Print Assumptions derive_WithLegacy_ssz_bytes_len.
Print Assumptions derive_WithLegacy_from_ssz_bytes.
