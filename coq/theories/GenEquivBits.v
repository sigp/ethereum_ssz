(** * GenEquivBits: the bitfield functions that [rs2v] derives from the Rust text ([Generated.v]:
    the rest of [impl<T> Bitfield<T>], the BitList / BitVector / BitVectorDynamic impls with their
    [Encode] / [Decode] / [Hash] impls) are equal to the hand-written model of [Bitfield.v].

    Where the Rust code does checked [usize] arithmetic that the model leaves unbounded
    ([len + 1], [bytes.len() * 8], [i * 8 + 7]) the hypothesis is [8 * len bytes <= usize::MAX], a byte
    vector that can exist; [highest_set_bit] also needs [wfb], because [leading_zeros] is a [u8] operation. *)
From SSZ Require Import Base RustSem Offsets Bitfield BaseFacts BitfieldFacts Generated GenEquiv.
From Coq Require Import ZArith ZifyN ZifyBool ZifyNat Lia.
Open Scope N_scope.


Lemma repeat_n_zeros n : repeat_n 0 n = zeros n. Proof. reflexivity. Qed.

Lemma omap_bf_abs_ok bs l : omap bf_abs (Ok {| Gen.Bitfield_bytes := bs; Gen.Bitfield_len := l |}) = Ok {| bf_bytes := bs; bf_len := l |}.
Proof. reflexivity. Qed.

Theorem gen_bitfield_into_raw_bytes_eq b : Gen.bitfield_into_raw_bytes b = Ok (bf_bytes (bf_abs b)).
Proof. reflexivity. Qed.
Theorem gen_bitfield_as_slice_eq b : Gen.bitfield_as_slice b = Ok (bf_bytes (bf_abs b)).
Proof. reflexivity. Qed.
Theorem gen_bitfield_is_zero_eq b : Gen.bitfield_is_zero b = Ok (is_zero (bf_abs b)).
Proof. reflexivity. Qed.
Theorem gen_bitfield_eq_eq a b : Gen.bitfield_eq a b = Ok (bf_eqb (bf_abs a) (bf_abs b)).
Proof. reflexivity. Qed.
(** [Hash]: what the source feeds to the hasher is the model's [bf_hash_stream] *)
Theorem gen_bitfield_hash_eq b st : Gen.bitfield_hash b st = Ok (st ++ bf_hash_stream (bf_abs b)).
Proof.
  unfold Gen.bitfield_hash, hash_bytes, hash_usize, bf_hash_stream. destruct b as [bs l]. cbn [Gen.Bitfield_bytes Gen.Bitfield_len bf_abs bf_bytes bf_len].
  rewrite <- !app_assoc. reflexivity.
Qed.

Theorem gen_bitfield_difference_eq a o :
  omap bf_abs (Gen.bitfield_difference a o) = Ok (difference (bf_abs a) (bf_abs o)).
Proof. unfold Gen.bitfield_difference. rewrite bind_ret. apply gen_bitfield_difference_inplace_eq. Qed.

(** ** [num_set_bits]: at most eight per byte, so the checked sum cannot overflow *)
Lemma popcount_fuel_le f b : popcount_fuel f b <= N.of_nat f.
Proof.
  revert b. induction f as [|f IH]; intro b; cbn [popcount_fuel]; [lia|].
  specialize (IH (b / 2)). pose proof (N.mod_lt b 2). lia.
Qed.

Lemma sum_count_ones8_le l : sumN (map count_ones8 l) <= 8 * len l.
Proof.
  induction l as [|x r IH]; [discriminate|]. cbn [map sumN]. rewrite len_cons.
  pose proof (popcount_fuel_le 8 x : count_ones8 x <= 8). lia.
Qed.

Theorem gen_bitfield_num_set_bits_eq b :
  8 * len (bf_bytes (bf_abs b)) <= usize_max ->
  Gen.bitfield_num_set_bits b = Ok (num_set_bits (bf_abs b)).
Proof.
  intro H. apply fold_usize_add. etransitivity; [apply sum_count_ones8_le | exact H].
Qed.

(** ** [highest_set_bit]: [iter().enumerate().rev().find(..)] is the forward scan of the model *)
Definition enum_from {A} (i : N) (l : list A) : list (N * A) :=
  combine (map (fun k => i + N.of_nat k) (seq 0 (length l))) l.

Lemma enumerate_n_from {A} (l : list A) : enumerate_n l = enum_from 0 l.
Proof.
  unfold enumerate_n, enum_from, range_up, llen. rewrite N.sub_0_r, Nnat.Nat2N.id. reflexivity.
Qed.

Lemma enum_from_cons {A} i (x : A) r : enum_from i (x :: r) = (i, x) :: enum_from (i + 1) r.
Proof.
  unfold enum_from. cbn [length]. rewrite <- cons_seq, <- seq_shift, map_cons, map_map. cbn [combine].
  f_equal; [f_equal; lia|]. f_equal. apply map_ext. intro k. lia.
Qed.

Lemma In_enum_from i (l : bytes) j x : In (j, x) (enum_from i l) -> i <= j < i + len l /\ In x l.
Proof.
  revert i. induction l as [|y r IH]; intros i H; [destruct H|].
  rewrite enum_from_cons in H. rewrite len_cons. destruct H as [H|H].
  - injection H as <- <-. split; [lia | left; reflexivity].
  - apply IH in H. split; [lia | right; tauto].
Qed.

Lemma find_app {A} (p : A -> bool) l1 l2 :
  find p (l1 ++ l2) = match find p l1 with Some x => Some x | None => find p l2 end.
Proof. induction l1 as [|x r IH]; cbn [app find]; [reflexivity|]. destruct (p x); [reflexivity | exact IH]. Qed.

Definition hsb_pred (p : N * N) : bool := let '(_, byte) := p in 0 <? byte.

Lemma hsb_go_find bs : forall i acc,
  hsb_go bs i acc =
  match find hsb_pred (rev (enum_from i bs)) with
  | Some (j, b) => Some (j * 8 + N.log2 b)
  | None => acc
  end.
Proof.
  induction bs as [|x r IH]; intros i acc; [reflexivity|].
  cbn [hsb_go]. rewrite IH, enum_from_cons. cbn [rev]. rewrite find_app.
  destruct (find hsb_pred (rev (enum_from (i + 1) r))) as [[j b]|]; [reflexivity|].
  cbn [find hsb_pred]. destruct (0 <? x); reflexivity.
Qed.

(** The byte found is a non-zero [u8] inside the vector, so [j * 8 + 7 - leading_zeros] is computed
    without overflow and is [j * 8 + log2]. *)
Theorem gen_bitfield_highest_set_bit_eq b :
  wfb (bf_bytes (bf_abs b)) -> 8 * len (bf_bytes (bf_abs b)) <= usize_max ->
  Gen.bitfield_highest_set_bit b = Ok (highest_set_bit (bf_abs b)).
Proof.
  intros Hw Hl. unfold Gen.bitfield_highest_set_bit, highest_set_bit. cbn [bf_abs bf_bytes] in *.
  rewrite hsb_go_find, enumerate_n_from. change (fun '(_, byte) => 0 <? byte) with hsb_pred.
  destruct (find hsb_pred _) as [[j x]|] eqn:E; cbn [opt_mapm]; [|reflexivity].
  apply find_some in E as (Hin & Hp). apply in_rev, In_enum_from in Hin as (Hj & Hx).
  apply N.ltb_lt in Hp. destruct (byte_log2 x (proj1 (Forall_forall _ _) Hw x Hx) Hp) as (Hlog & _).
  unfold leading_zeros8. rewrite (proj2 (N.eqb_neq x 0)) by lia.
  rewrite usize_mul_ok by lia. cbn [bind]. rewrite usize_add_ok by lia. cbn [bind]. rewrite usize_sub_ok by lia.
  cbn [bind]. do 2 f_equal. lia.
Qed.

Theorem gen_bitlist_with_capacity_eq n k : omap bf_abs (Gen.bitlist_with_capacity n k) = bl_with_capacity n k.
Proof.
  unfold Gen.bitlist_with_capacity, bl_with_capacity. destruct (k <=? n); [|reflexivity].
  rewrite gen_bytes_for_bit_len_eq. reflexivity.
Qed.
Theorem gen_bitlist_max_len_eq n : Gen.bitlist_max_len n = Ok n. Proof. reflexivity. Qed.
Theorem gen_bitvector_capacity_eq n : Gen.bitvector_capacity n = Ok n. Proof. reflexivity. Qed.
Theorem gen_bitvector_new_eq n : omap bf_abs (Gen.bitvector_new n) = Ok (bv_new n).
Proof. unfold Gen.bitvector_new, bv_new. cbn [Gen.bitvector_capacity bind]. rewrite gen_bytes_for_bit_len_eq. reflexivity. Qed.
Theorem gen_bitvector_default_eq n : Gen.bitvector_default n = Gen.bitvector_new n.
Proof. reflexivity. Qed.
Theorem gen_bitdyn_new_eq l : omap bf_abs (Gen.bitdyn_new l) = bd_new l.
Proof.
  unfold Gen.bitdyn_new, bd_new. destruct (l =? 0); [reflexivity|].
  destruct (l mod 8 =? 0); cbn [negb]; [|reflexivity]. rewrite gen_bytes_for_bit_len_eq. reflexivity.
Qed.

Lemma resize_n_bytes (bs : bytes) n : resize_n bs n 0 = resize_bytes bs n.
Proof. reflexivity. Qed.

Theorem gen_bitlist_into_bytes_eq n b :
  bf_len (bf_abs b) < usize_max ->
  Gen.bitlist_into_bytes n b = bl_into_bytes (bf_abs b).
Proof.
  intro H. unfold Gen.bitlist_into_bytes, bl_into_bytes. cbn [Gen.bitfield_len bind bf_abs bf_len bf_bytes] in *.
  rewrite usize_add_ok by lia. cbn [bind]. rewrite gen_bytes_for_bit_len_eq. cbn [bind].
  rewrite resize_n_bytes, <- gen_bitfield_from_raw_bytes_eq.
  destruct (Gen.bitfield_from_raw_bytes _ _) as [b1| |]; cbn [omap unwrap_res bind]; try reflexivity.
  rewrite <- gen_bitfield_set_eq. destruct (Gen.bitfield_set b1 _ true); reflexivity.
Qed.

Lemma truncate_n_take (bs : bytes) n : truncate_n bs n = take n bs.
Proof. reflexivity. Qed.

(** The intermediate bitfield holds the input bytes ([from_raw_elim]), so [highest_set_bit] runs on a
    vector that exists and returns an index below [8 * len bs] ([hsb_some], [top_bit_lt]). *)
Theorem gen_bitlist_from_bytes_eq n bs :
  wfb bs -> 8 * len bs <= usize_max ->
  omap bf_abs (Gen.bitlist_from_bytes n bs) = bl_from_bytes n bs.
Proof.
  intros Hw Hl. unfold Gen.bitlist_from_bytes, bl_from_bytes. change (llen bs) with (len bs).
  rewrite usize_mul_ok by lia. cbn [bind]. rewrite bind_ret.
  apply (bind_abs bf_abs); [apply gen_bitfield_from_raw_bytes_eq | intros b1 Eg].
  pose proof (gen_bitfield_from_raw_bytes_eq bs (len bs * 8)) as Hb1. rewrite Eg in Hb1. symmetry in Hb1.
  apply (from_raw_elim _ _ _ Hw) in Hb1 as (Hb1 & _).
  rewrite gen_bitfield_highest_set_bit_eq by (rewrite Hb1; assumption). cbn [bind].
  destruct (highest_set_bit (bf_abs b1)) as [l|] eqn:Eh; cbn [ok_or bind omap]; [|reflexivity].
  rewrite Hb1 in Eh. apply (hsb_some _ _ _ Hw), top_bit_lt in Eh.
  rewrite usize_add_ok by lia. cbn [bind]. destruct (l / 8 + 1 =? len bs); cbn [negb omap]; [|reflexivity].
  cbn [Gen.bitlist_max_len bind]. destruct (l <=? n); cbn [omap]; [|reflexivity].
  rewrite <- gen_bitfield_set_eq. destruct (Gen.bitfield_set b1 l false) as [b2| |]; cbn [omap unwrap_res bind]; try reflexivity.
  cbn [Gen.bitfield_into_raw_bytes bind]. rewrite gen_bytes_for_bit_len_eq. apply gen_bitfield_from_raw_bytes_eq.
Qed.

Theorem gen_bitvector_into_bytes_eq n b : Gen.bitvector_into_bytes n b = Ok (bv_into_bytes (bf_abs b)).
Proof. reflexivity. Qed.
Theorem gen_bitvector_from_bytes_eq n bs : omap bf_abs (Gen.bitvector_from_bytes n bs) = bv_from_bytes n bs.
Proof. apply gen_bitfield_from_raw_bytes_eq. Qed.
Theorem gen_bitdyn_into_bytes_eq b : Gen.bitdyn_into_bytes b = Ok (bd_into_bytes (bf_abs b)).
Proof. reflexivity. Qed.
Theorem gen_bitdyn_from_bytes_with_len_eq bs l :
  8 * len bs <= usize_max ->
  omap bf_abs (Gen.bitdyn_from_bytes_with_len bs l) = bd_from_bytes_with_len bs l.
Proof.
  intro H. unfold Gen.bitdyn_from_bytes_with_len, bd_from_bytes_with_len. change (llen bs) with (len bs).
  rewrite usize_mul_ok by lia. cbn [bind].
  destruct (l =? len bs * 8); [apply gen_bitfield_from_raw_bytes_eq | reflexivity].
Qed.

(** ** the index loops of the set operations: [index_loop] over all of the result's bytes, then the
    values [g] over the indices are the model's recursion over the two operands *)
Lemma index_loop_all F g rb l :
  (forall p x s, F {| Gen.Bitfield_bytes := p ++ x :: s; Gen.Bitfield_len := l |} (N.of_nat (length p))
                 = omap (fun v => {| Gen.Bitfield_bytes := p ++ v :: s; Gen.Bitfield_len := l |}) (g (N.of_nat (length p)))) ->
  omap bf_abs (fold_m F (range_up 0 (llen rb)) {| Gen.Bitfield_bytes := rb; Gen.Bitfield_len := l |})
  = do bs <- mapM g (range_up 0 (llen rb)); Ok {| bf_bytes := bs; bf_len := l |}.
Proof.
  intro HF. unfold llen. rewrite (index_loop F g rb l (fun p x s _ => HF p x s)), skipn_all by reflexivity.
  destruct (mapM g _); cbn [omap bind bf_abs Gen.Bitfield_bytes Gen.Bitfield_len]; try reflexivity.
  rewrite app_nil_r. reflexivity.
Qed.

Lemma and_index_mapm n : forall a o,
  mapM (fun i => do t1 <- index_at a i; do t2 <- index_at o i; Ok (N.land t1 t2)) (range_up 0 (N.of_nat n))
  = and_index n a o.
Proof.
  induction n as [|n IH]; intros a o; [reflexivity|].
  rewrite mapM_range_cons. cbn [and_index].
  destruct a as [|x ar]; [reflexivity|]. destruct o as [|y or]; [reflexivity|].
  change (index_at (x :: ar) 0) with (Ok x). change (index_at (y :: or) 0) with (Ok y). cbn [bind].
  rewrite (mapM_ext _ (fun i => do t1 <- index_at ar i; do t2 <- index_at or i; Ok (N.land t1 t2)))
    by (intro i; rewrite !index_at_succ; reflexivity).
  rewrite IH. reflexivity.
Qed.

Lemma get_at_nil {A} i : @get_at A [] i = None.
Proof. unfold get_at. destruct (N.to_nat i); reflexivity. Qed.

(** [f] of [get(i).copied().unwrap_or(0)] on both operands *)
Definition get_or0 (f : N -> N -> N) (a o : bytes) (i : N) : N :=
  f (opt_unwrap_or (get_at a i) 0) (opt_unwrap_or (get_at o i) 0).

Lemma zip_get_mapm f n : forall a o,
  mapM (fun i => Ok (get_or0 f a o i)) (range_up 0 (N.of_nat n)) = Ok (zip_get_or0 f n a o).
Proof.
  induction n as [|n IH]; intros a o; [reflexivity|].
  rewrite mapM_range_cons. cbn [bind zip_get_or0].
  rewrite (mapM_ext _ (fun i => Ok (get_or0 f (tl a) (tl o) i))).
  - rewrite IH. destruct a, o; reflexivity.
  - intro i. unfold get_or0. destruct a, o; cbn [tl]; rewrite ?get_at_succ, ?get_at_nil; reflexivity.
Qed.

Definition and_body (a o : Gen.Bitfield) (result : Gen.Bitfield) (i : N) : outcome Gen.Bitfield :=
  do t1 <- index_at (Gen.Bitfield_bytes a) i;
  do t2 <- index_at (Gen.Bitfield_bytes o) i;
  do upd <- set_at (Gen.Bitfield_bytes result) i (N.land t1 t2);
  Ok (Gen.set_Bitfield_bytes result upd).

Lemma and_loop a o rb l :
  omap bf_abs (fold_m (and_body a o) (range_up 0 (llen rb)) {| Gen.Bitfield_bytes := rb; Gen.Bitfield_len := l |})
  = do bs <- and_index (length rb) (Gen.Bitfield_bytes a) (Gen.Bitfield_bytes o); Ok {| bf_bytes := bs; bf_len := l |}.
Proof.
  rewrite <- and_index_mapm. apply index_loop_all. intros p x s. unfold and_body.
  destruct (index_at (Gen.Bitfield_bytes a) _); [|reflexivity..].
  destruct (index_at (Gen.Bitfield_bytes o) _); [|reflexivity..].
  cbn [bind Gen.Bitfield_bytes]. rewrite set_at_mid. reflexivity.
Qed.

(** The other operations write [get_or0] through [result.bytes[i] = ..] (BitList, BitVector) or
    through [iter_mut()] (Dynamic). *)
Definition or_body (f : N -> N -> N) (a o : Gen.Bitfield) (result : Gen.Bitfield) (i : N) : outcome Gen.Bitfield :=
  do upd <- set_at (Gen.Bitfield_bytes result) i (get_or0 f (Gen.Bitfield_bytes a) (Gen.Bitfield_bytes o) i);
  Ok (Gen.set_Bitfield_bytes result upd).

Definition upd_body (f : N -> N -> N) (a o : Gen.Bitfield) (result : Gen.Bitfield) (i : N) : outcome Gen.Bitfield :=
  Ok (Gen.set_Bitfield_bytes result
        (upd_at (Gen.Bitfield_bytes result) i (get_or0 f (Gen.Bitfield_bytes a) (Gen.Bitfield_bytes o) i))).

Lemma or_loop F f a o rb l :
  (forall p x s, F {| Gen.Bitfield_bytes := p ++ x :: s; Gen.Bitfield_len := l |} (N.of_nat (length p))
     = Ok {| Gen.Bitfield_bytes := p ++ get_or0 f (Gen.Bitfield_bytes a) (Gen.Bitfield_bytes o) (N.of_nat (length p)) :: s;
             Gen.Bitfield_len := l |}) ->
  omap bf_abs (fold_m F (range_up 0 (llen rb)) {| Gen.Bitfield_bytes := rb; Gen.Bitfield_len := l |})
  = Ok {| bf_bytes := zip_get_or0 f (length rb) (Gen.Bitfield_bytes a) (Gen.Bitfield_bytes o); bf_len := l |}.
Proof.
  intro HF. rewrite (index_loop_all F (fun i => Ok (get_or0 f (Gen.Bitfield_bytes a) (Gen.Bitfield_bytes o) i)) rb l HF).
  unfold llen. rewrite zip_get_mapm. reflexivity.
Qed.

Lemma or_body_step f a o l p x s :
  or_body f a o {| Gen.Bitfield_bytes := p ++ x :: s; Gen.Bitfield_len := l |} (N.of_nat (length p))
  = Ok {| Gen.Bitfield_bytes := p ++ get_or0 f (Gen.Bitfield_bytes a) (Gen.Bitfield_bytes o) (N.of_nat (length p)) :: s;
          Gen.Bitfield_len := l |}.
Proof. unfold or_body. cbn [Gen.Bitfield_bytes]. rewrite set_at_mid. reflexivity. Qed.

Lemma upd_body_step f a o l p x s :
  upd_body f a o {| Gen.Bitfield_bytes := p ++ x :: s; Gen.Bitfield_len := l |} (N.of_nat (length p))
  = Ok {| Gen.Bitfield_bytes := p ++ get_or0 f (Gen.Bitfield_bytes a) (Gen.Bitfield_bytes o) (N.of_nat (length p)) :: s;
          Gen.Bitfield_len := l |}.
Proof. unfold upd_body. cbn [Gen.Bitfield_bytes]. rewrite upd_at_mid. reflexivity. Qed.

Theorem gen_bitlist_intersection_eq n a o :
  omap bf_abs (Gen.bitlist_intersection n a o) = bl_intersection n (bf_abs a) (bf_abs o).
Proof.
  unfold Gen.bitlist_intersection, bl_intersection. cbn [Gen.bitfield_len bind bf_abs bf_len bf_bytes].
  rewrite <- gen_bitlist_with_capacity_eq.
  destruct (Gen.bitlist_with_capacity n _) as [[rb rl]| |]; cbn [omap unwrap_res bind]; try reflexivity.
  rewrite bind_ret. apply and_loop.
Qed.

Theorem gen_bitlist_union_eq n a o :
  omap bf_abs (Gen.bitlist_union n a o) = bl_union n (bf_abs a) (bf_abs o).
Proof.
  unfold Gen.bitlist_union, bl_union. cbn [Gen.bitfield_len bind bf_abs bf_len bf_bytes].
  rewrite <- gen_bitlist_with_capacity_eq.
  destruct (Gen.bitlist_with_capacity n _) as [[rb rl]| |]; cbn [omap unwrap_res bind]; try reflexivity.
  rewrite bind_ret. apply (or_loop (or_body N.lor a o)), or_body_step.
Qed.

Theorem gen_bitlist_is_subset_eq n a o : Gen.bitlist_is_subset n a o = Ok (bf_is_subset (bf_abs a) (bf_abs o)).
Proof.
  unfold Gen.bitlist_is_subset, bf_is_subset. pose proof (gen_bitfield_difference_eq a o) as H.
  destruct (Gen.bitfield_difference a o) as [r| |]; try discriminate.
  apply Ok_inj in H. rewrite <- H. reflexivity.
Qed.

Theorem gen_bitvector_is_subset_eq n a o : Gen.bitvector_is_subset n a o = Ok (bf_is_subset (bf_abs a) (bf_abs o)).
Proof. exact (gen_bitlist_is_subset_eq n a o). Qed.

Theorem gen_bitvector_intersection_eq n a o :
  omap bf_abs (Gen.bitvector_intersection n a o) = bv_intersection n (bf_abs a) (bf_abs o).
Proof.
  unfold Gen.bitvector_intersection, bv_intersection. pose proof (gen_bitvector_new_eq n) as Hc.
  destruct (Gen.bitvector_new n) as [[rb rl]| |]; try discriminate.
  apply Ok_inj in Hc. rewrite <- Hc. cbn [bind]. rewrite bind_ret. apply and_loop.
Qed.

Theorem gen_bitvector_union_eq n a o :
  omap bf_abs (Gen.bitvector_union n a o) = Ok (bv_union n (bf_abs a) (bf_abs o)).
Proof.
  unfold Gen.bitvector_union, bv_union. pose proof (gen_bitvector_new_eq n) as Hc.
  destruct (Gen.bitvector_new n) as [[rb rl]| |]; try discriminate.
  apply Ok_inj in Hc. rewrite <- Hc. cbn [bind]. rewrite bind_ret. apply (or_loop (or_body N.lor a o)), or_body_step.
Qed.

Lemma bitdyn_binop_eq f (G : Gen.Bitfield -> Gen.Bitfield -> outcome Gen.Bitfield) a o :
  (forall a o, G a o =
     do t1 <- Gen.bitfield_len a; do t2 <- Gen.bitfield_len o;
     do q <- Gen.bitdyn_new (N.max t1 t2);
     do st <- fold_m (upd_body f a o) (range_up 0 (llen (Gen.Bitfield_bytes q))) q;
     Ok st) ->
  omap bf_abs (G a o) = bd_binop f (bf_abs a) (bf_abs o).
Proof.
  intro HG. rewrite HG. unfold bd_binop. cbn [Gen.bitfield_len bind bf_abs bf_len bf_bytes].
  apply (bind_abs bf_abs); [apply gen_bitdyn_new_eq | intros [rb rl] _].
  rewrite bind_ret. apply (or_loop (upd_body f a o)), upd_body_step.
Qed.

Theorem gen_bitdyn_intersection_eq a o : omap bf_abs (Gen.bitdyn_intersection a o) = bd_intersection (bf_abs a) (bf_abs o).
Proof. apply (bitdyn_binop_eq N.land Gen.bitdyn_intersection). intros; reflexivity. Qed.
Theorem gen_bitdyn_union_eq a o : omap bf_abs (Gen.bitdyn_union a o) = bd_union (bf_abs a) (bf_abs o).
Proof. apply (bitdyn_binop_eq N.lor Gen.bitdyn_union). intros; reflexivity. Qed.


(** ** [iter()], [BitIter::next] and [resize]: the iterator loop is the model's [set_all] over [bf_iter] *)
Theorem gen_bitfield_iter_eq b :
  Gen.bitfield_iter b = Ok {| Gen.BitIter_bitfield := b; Gen.BitIter_i := 0 |}.
Proof. reflexivity. Qed.

Theorem gen_bititer_next_eq b i :
  Gen.bititer_next {| Gen.BitIter_bitfield := b; Gen.BitIter_i := i |} =
  match bf_get (bf_abs b) i with
  | Ok x => do s <- usize_add i 1; Ok (Some x, {| Gen.BitIter_bitfield := b; Gen.BitIter_i := s |})
  | Err => Ok (None, {| Gen.BitIter_bitfield := b; Gen.BitIter_i := i |})
  | Panic => Panic
  end.
Proof.
  unfold Gen.bititer_next. cbn [Gen.BitIter_bitfield Gen.BitIter_i]. rewrite gen_bitfield_get_eq.
  destruct (bf_get (bf_abs b) i); reflexivity.
Qed.

Definition resize_body (resized : Gen.Bitfield) (p : N * bool) : outcome Gen.Bitfield :=
  let '(i, bit) := p in do st <- Gen.bitfield_set resized i bit; Ok st.

(** From index [i] on, with [d] bits left and one unit of fuel to see the end. *)
Lemma resize_loop b : bf_len (bf_abs b) <= usize_max -> forall d i st,
  i + N.of_nat d = bf_len (bf_abs b) ->
  omap bf_abs (for_iter_from Gen.bititer_next resize_body (S d) {| Gen.BitIter_bitfield := b; Gen.BitIter_i := i |} i st)
  = set_all (bf_abs st) i (iter_fuel d (bf_abs b) i).
Proof.
  intros Hmax. induction d as [|d IH]; intros i st Hi; cbn [for_iter_from iter_fuel]; rewrite gen_bititer_next_eq; unfold bf_get.
  - rewrite (proj2 (N.ltb_ge _ _)) by lia. reflexivity.
  - rewrite (proj2 (N.ltb_lt _ _)) by lia. destruct (nthN _ _); [|reflexivity].
    rewrite usize_add_ok by lia. cbn [bind set_all resize_body]. rewrite bind_ret.
    apply (bind_abs bf_abs); [apply gen_bitfield_set_eq | intros st' _]. apply IH. lia.
Qed.

Theorem gen_bitlist_resize_eq n m b :
  bf_len (bf_abs b) <= usize_max ->
  omap bf_abs (Gen.bitlist_resize n m b) = bl_resize n m (bf_abs b).
Proof.
  intro H. unfold Gen.bitlist_resize, bl_resize. destruct (m <? n); [reflexivity|].
  apply (bind_abs bf_abs); [apply gen_bitlist_with_capacity_eq | intros r _].
  cbn [Gen.bitfield_iter bind Gen.BitIter_bitfield]. rewrite bind_ret.
  apply (resize_loop b H). change (Gen.Bitfield_len b) with (bf_len (bf_abs b)). lia.
Qed.

Theorem gen_bitlist_enc_is_fixed_eq n : Gen.bitlist_enc_is_ssz_fixed_len n = Ok false. Proof. reflexivity. Qed.
Theorem gen_bitlist_dec_is_fixed_eq n : Gen.bitlist_dec_is_ssz_fixed_len n = Ok false. Proof. reflexivity. Qed.
Theorem gen_bitvector_enc_is_fixed_eq n : Gen.bitvector_enc_is_ssz_fixed_len n = Ok true. Proof. reflexivity. Qed.
Theorem gen_bitvector_dec_is_fixed_eq n : Gen.bitvector_dec_is_ssz_fixed_len n = Ok true. Proof. reflexivity. Qed.
Theorem gen_bitdyn_enc_is_fixed_eq : Gen.bitdyn_enc_is_ssz_fixed_len = Ok false. Proof. reflexivity. Qed.
Theorem gen_bitdyn_dec_is_fixed_eq : Gen.bitdyn_dec_is_ssz_fixed_len = Ok false. Proof. reflexivity. Qed.
Theorem gen_bitvector_enc_fixed_len_eq n : Gen.bitvector_enc_ssz_fixed_len n = Ok (bytes_for_bit_len n).
Proof. apply gen_bytes_for_bit_len_eq. Qed.
Theorem gen_bitvector_dec_fixed_len_eq n : Gen.bitvector_dec_ssz_fixed_len n = Ok (bytes_for_bit_len n).
Proof. apply gen_bytes_for_bit_len_eq. Qed.

Theorem gen_bitlist_ssz_append_eq n b buf :
  bf_len (bf_abs b) < usize_max ->
  Gen.bitlist_ssz_append n b buf = do bs <- bl_into_bytes (bf_abs b); Ok (buf ++ bs).
Proof. intro H. unfold Gen.bitlist_ssz_append. rewrite gen_bitlist_into_bytes_eq by exact H. reflexivity. Qed.
Theorem gen_bitlist_ssz_bytes_len_eq n b :
  bf_len (bf_abs b) < usize_max ->
  Gen.bitlist_ssz_bytes_len n b = do bs <- bl_into_bytes (bf_abs b); Ok (len bs).
Proof. intro H. unfold Gen.bitlist_ssz_bytes_len. rewrite gen_bitlist_into_bytes_eq by exact H. reflexivity. Qed.
Theorem gen_bitlist_from_ssz_bytes_eq n bs :
  wfb bs -> 8 * len bs <= usize_max ->
  omap bf_abs (Gen.bitlist_from_ssz_bytes n bs) = bl_from_bytes n bs.
Proof. apply gen_bitlist_from_bytes_eq. Qed.

Theorem gen_bitvector_ssz_append_eq n b buf : Gen.bitvector_ssz_append n b buf = Ok (buf ++ bv_into_bytes (bf_abs b)).
Proof. reflexivity. Qed.
Theorem gen_bitvector_ssz_bytes_len_eq n b : Gen.bitvector_ssz_bytes_len n b = Ok (len (bf_bytes (bf_abs b))).
Proof. reflexivity. Qed.
Theorem gen_bitvector_from_ssz_bytes_eq n bs : omap bf_abs (Gen.bitvector_from_ssz_bytes n bs) = bv_from_bytes n bs.
Proof. apply gen_bitvector_from_bytes_eq. Qed.

Theorem gen_bitdyn_ssz_append_eq b buf : Gen.bitdyn_ssz_append b buf = Ok (buf ++ bd_into_bytes (bf_abs b)).
Proof. reflexivity. Qed.
Theorem gen_bitdyn_ssz_bytes_len_eq b : Gen.bitdyn_ssz_bytes_len b = Ok (len (bf_bytes (bf_abs b))).
Proof. reflexivity. Qed.
Theorem gen_bitdyn_from_ssz_bytes_eq bs :
  8 * len bs <= usize_max ->
  omap bf_abs (Gen.bitdyn_from_ssz_bytes bs) = bd_decode bs.
Proof.
  intro H. unfold Gen.bitdyn_from_ssz_bytes, bd_decode. change (llen bs) with (len bs).
  rewrite usize_mul_ok by lia. destruct bs; [reflexivity | apply gen_bitfield_from_raw_bytes_eq].
Qed.

Print Assumptions gen_bitfield_highest_set_bit_eq.
Print Assumptions gen_bitfield_num_set_bits_eq.
Print Assumptions gen_bitfield_difference_eq.
Print Assumptions gen_bitlist_into_bytes_eq.
Print Assumptions gen_bitlist_from_bytes_eq.
Print Assumptions gen_bitlist_intersection_eq.
Print Assumptions gen_bitlist_union_eq.
Print Assumptions gen_bitvector_intersection_eq.
Print Assumptions gen_bitvector_union_eq.
Print Assumptions gen_bitdyn_intersection_eq.
Print Assumptions gen_bitdyn_union_eq.
Print Assumptions gen_bitdyn_from_ssz_bytes_eq.
Print Assumptions gen_bitlist_ssz_append_eq.
Print Assumptions gen_bitlist_resize_eq.
Print Assumptions gen_bitfield_hash_eq.
Print Assumptions gen_bitvector_default_eq.
