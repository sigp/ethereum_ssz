(** * GenPropsBits: properties C11 - C14 (and C05 for the decoders) stated directly about the bitfield definitions that
    [rs2v] derives from the Rust text ([Generated.v]), by composing [GenEquivBits.v]
    (generated = model) with the refinement theorems of [BitfieldOpsFacts.v] (model = plain
    boolean sequences).  [R fl b bits] is the representation relation of those theorems: the
    byte-level bitfield [b] (invariant + the flavour's length rule) represents [bits].

    The source does checked [usize] arithmetic on lengths; [fits b] says that the byte vector is
    one that can exist ([8 * bytes.len()] does not overflow), which is all those additions need. *)
From SSZ Require Import Base RustSem Offsets Bitfield BaseFacts BitfieldFacts BitfieldOps BitfieldOpsFacts
     Generated GenEquiv GenEquivBits.
From Coq Require Import ZArith ZifyN ZifyBool ZifyNat Lia.
Open Scope N_scope.

Definition fits (b : Gen.Bitfield) : Prop := 8 * len (Gen.Bitfield_bytes b) <= usize_max.

(** ** the three flavours' operations, as written in the source *)
Definition g_union (fl : flavour) (a o : Gen.Bitfield) : outcome Gen.Bitfield :=
  match fl with
  | FList cap => Gen.bitlist_union cap a o
  | FVec m => Gen.bitvector_union m a o
  | FDyn => Gen.bitdyn_union a o
  end.
Definition g_inter (fl : flavour) (a o : Gen.Bitfield) : outcome Gen.Bitfield :=
  match fl with
  | FList cap => Gen.bitlist_intersection cap a o
  | FVec m => Gen.bitvector_intersection m a o
  | FDyn => Gen.bitdyn_intersection a o
  end.
Definition g_decode (fl : flavour) (bs : bytes) : outcome Gen.Bitfield :=
  match fl with
  | FList cap => Gen.bitlist_from_ssz_bytes cap bs
  | FVec m => Gen.bitvector_from_ssz_bytes m bs
  | FDyn => Gen.bitdyn_from_ssz_bytes bs
  end.
Definition g_ssz_append (fl : flavour) (b : Gen.Bitfield) (buf : bytes) : outcome bytes :=
  match fl with
  | FList cap => Gen.bitlist_ssz_append cap b buf
  | FVec m => Gen.bitvector_ssz_append m b buf
  | FDyn => Gen.bitdyn_ssz_append b buf
  end.
Definition g_ssz_bytes_len (fl : flavour) (b : Gen.Bitfield) : outcome N :=
  match fl with
  | FList cap => Gen.bitlist_ssz_bytes_len cap b
  | FVec m => Gen.bitvector_ssz_bytes_len m b
  | FDyn => Gen.bitdyn_ssz_bytes_len b
  end.
Definition g_new (fl : flavour) (n : N) : outcome Gen.Bitfield :=
  match fl with
  | FList cap => Gen.bitlist_with_capacity cap n
  | FVec m => Gen.bitvector_new m
  | FDyn => Gen.bitdyn_new n
  end.

Lemma g_union_eq fl a o : omap bf_abs (g_union fl a o) = i_union fl (bf_abs a) (bf_abs o).
Proof.
  destruct fl; cbn [g_union i_union].
  - apply gen_bitlist_union_eq.
  - apply gen_bitvector_union_eq.
  - apply gen_bitdyn_union_eq.
Qed.
Lemma g_inter_eq fl a o : omap bf_abs (g_inter fl a o) = i_inter fl (bf_abs a) (bf_abs o).
Proof.
  destruct fl; cbn [g_inter i_inter].
  - apply gen_bitlist_intersection_eq.
  - apply gen_bitvector_intersection_eq.
  - apply gen_bitdyn_intersection_eq.
Qed.
Lemma g_new_eq fl n : omap bf_abs (g_new fl n) = i_new fl n.
Proof.
  destruct fl; cbn [g_new i_new].
  - apply gen_bitlist_with_capacity_eq.
  - apply gen_bitvector_new_eq.
  - apply gen_bitdyn_new_eq.
Qed.
Lemma g_decode_eq fl bs : wfb bs -> 8 * len bs <= usize_max -> omap bf_abs (g_decode fl bs) = i_decode fl bs.
Proof.
  intros Hw Hl. destruct fl; cbn [g_decode i_decode].
  - apply gen_bitlist_from_ssz_bytes_eq; assumption.
  - apply gen_bitvector_from_ssz_bytes_eq.
  - apply gen_bitdyn_from_ssz_bytes_eq; assumption.
Qed.

(** transport of a refinement statement along [omap bf_abs g = i] *)
Lemma transport_R {B} (g : outcome Gen.Bitfield) (i : outcome bf) (a : outcome B) (P : bf -> B -> Prop) :
  omap bf_abs g = i ->
  match i, a with Ok r, Ok rb => P r rb | _, _ => False end ->
  match g, a with Ok r, Ok rb => P (bf_abs r) rb | _, _ => False end.
Proof.
  intros <- H. destruct g as [r| |]; cbn [omap] in H; exact H.
Qed.
Lemma transport_R_err {B} (g : outcome Gen.Bitfield) (i : outcome bf) (a : outcome B) (P : bf -> B -> Prop) :
  omap bf_abs g = i ->
  match i, a with Ok r, Ok rb => P r rb | Err, Err => True | _, _ => False end ->
  match g, a with Ok r, Ok rb => P (bf_abs r) rb | Err, Err => True | _, _ => False end.
Proof.
  intros <- H. destruct g as [r| |]; cbn [omap] in H; exact H.
Qed.

(** ** C12: the set operations of the source are exact on the operands' bits *)
Theorem Src_C12_union fl a abits o obits :
  R fl (bf_abs a) abits -> R fl (bf_abs o) obits ->
  match g_union fl a o, a_union fl abits obits with Ok r, Ok rbits => R fl (bf_abs r) rbits | _, _ => False end.
Proof. intros Ha Ho. apply (transport_R _ _ _ (R fl) (g_union_eq fl a o)). apply R_union; assumption. Qed.

Theorem Src_C12_intersection fl a abits o obits :
  R fl (bf_abs a) abits -> R fl (bf_abs o) obits ->
  match g_inter fl a o, a_inter fl abits obits with Ok r, Ok rbits => R fl (bf_abs r) rbits | _, _ => False end.
Proof. intros Ha Ho. apply (transport_R _ _ _ (R fl) (g_inter_eq fl a o)). apply R_inter; assumption. Qed.

Theorem Src_C12_difference fl a abits o obits :
  R fl (bf_abs a) abits -> R fl (bf_abs o) obits ->
  match Gen.bitfield_difference a o with Ok r => R fl (bf_abs r) (a_diff abits obits) | _ => False end.
Proof.
  intros Ha Ho. pose proof (gen_bitfield_difference_eq a o) as E.
  destruct (Gen.bitfield_difference a o) as [r| |]; cbn [omap] in E; try discriminate.
  apply Ok_inj in E. rewrite E. apply R_diff; assumption.
Qed.

Theorem Src_C12_subset fl a abits o obits :
  R fl (bf_abs a) abits -> R fl (bf_abs o) obits ->
  (forall n, Gen.bitlist_is_subset n a o = Ok (forallb negb (a_diff abits obits))) /\
  (forall n, Gen.bitvector_is_subset n a o = Ok (forallb negb (a_diff abits obits))).
Proof.
  intros Ha Ho. split; intro n.
  - rewrite gen_bitlist_is_subset_eq. f_equal. apply (R_subset fl); assumption.
  - rewrite gen_bitvector_is_subset_eq. f_equal. apply (R_subset fl); assumption.
Qed.

(** ** C13 / C14: constructors and decoders of the source enforce the length rule and accept exactly
    the closed-form accept sets; what they return represents the unpacked bits *)
Theorem Src_C13_new fl n :
  match g_new fl n, a_new fl n with Ok b, Ok bits => R fl (bf_abs b) bits | Err, Err => True | _, _ => False end.
Proof. apply (transport_R_err _ _ _ (R fl) (g_new_eq fl n)). apply R_new. Qed.

Theorem Src_C14_from_ssz_bytes fl bs :
  wfb bs -> 8 * len bs <= usize_max ->
  match g_decode fl bs, a_decode fl bs with Ok b, Ok bits => R fl (bf_abs b) bits | Err, Err => True | _, _ => False end.
Proof.
  intros Hw Hl. apply (transport_R_err _ _ _ (R fl) (g_decode_eq fl bs Hw Hl)). apply R_decode. exact Hw.
Qed.

Theorem Src_C05_from_ssz_bytes_no_panic fl bs :
  wfb bs -> 8 * len bs <= usize_max -> g_decode fl bs <> Panic.
Proof.
  intros Hw Hl. pose proof (Src_C14_from_ssz_bytes fl bs Hw Hl) as H.
  destruct (g_decode fl bs); [discriminate | discriminate |]. destruct (a_decode fl bs); contradiction.
Qed.

Theorem Src_C14_dynamic_with_len bs l :
  wfb bs -> 8 * len bs <= usize_max ->
  match Gen.bitdyn_from_bytes_with_len bs l, a_from_bytes_with_len bs l with
  | Ok b, Ok bits => R FDyn (bf_abs b) bits | Err, Err => True | _, _ => False end.
Proof.
  intros Hw Hl. apply (transport_R_err _ _ _ (R FDyn) (gen_bitdyn_from_bytes_with_len_eq bs l Hl)).
  apply from_bytes_with_len_refines. exact Hw.
Qed.

(** ** C03 / C07 / C10 / C14: what the source's [ssz_append] / [ssz_bytes_len] produce *)
Lemma R_fits_len fl b bits : R fl (bf_abs b) bits -> fits b -> bf_len (bf_abs b) < usize_max.
Proof.
  intros HR Hf. pose proof (R_Inv _ _ _ HR) as (Hlen & _ & _). unfold fits in Hf.
  cbn [bf_abs bf_bytes bf_len] in *. unfold bytes_for_bit_len in Hlen.
  assert (usize_max = 18446744073709551615) by reflexivity. lia.
Qed.

Theorem Src_C14_ssz_append fl b bits buf :
  R fl (bf_abs b) bits -> fits b ->
  g_ssz_append fl b buf = Ok (buf ++ a_ssz fl bits) /\ g_ssz_bytes_len fl b = Ok (len (a_ssz fl bits)).
Proof.
  intros HR Hf. destruct (R_observe _ _ _ HR) as (_ & _ & _ & Hs & Hz & _).
  destruct fl as [cap|m|]; cbn [g_ssz_append g_ssz_bytes_len].
  - pose proof (R_fits_len _ _ _ HR Hf) as Hl.
    rewrite gen_bitlist_ssz_append_eq, gen_bitlist_ssz_bytes_len_eq by exact Hl.
    cbn [i_ssz] in Hz. destruct (bl_into_bytes_ok (bf_abs b) (R_Inv _ _ _ HR)) as (bs & Hb).
    rewrite Hb in *. cbn [bind]. subst bs. split; reflexivity.
  - rewrite gen_bitvector_ssz_append_eq, gen_bitvector_ssz_bytes_len_eq. cbn [i_ssz] in Hz.
    unfold bv_into_bytes in *. rewrite Hz. split; reflexivity.
  - rewrite gen_bitdyn_ssz_append_eq, gen_bitdyn_ssz_bytes_len_eq. cbn [i_ssz] in Hz.
    unfold bd_into_bytes in *. rewrite Hz. split; reflexivity.
Qed.

(** ** C11: the read-only observations of the source on any represented value *)
Theorem Src_C11_observations fl b bits :
  R fl (bf_abs b) bits -> fits b ->
  Gen.bitfield_num_set_bits b = Ok (count_true bits) /\
  Gen.bitfield_highest_set_bit b = Ok (a_hsb bits) /\
  Gen.bitfield_is_zero b = Ok (forallb negb bits) /\
  Gen.bitfield_as_slice b = Ok (a_slice bits) /\
  Gen.bitfield_len b = Ok (blen bits).
Proof.
  intros HR Hf. destruct (R_observe _ _ _ HR) as (Hn & Hh & Hz & Hs & _ & _).
  pose proof (R_Inv _ _ _ HR) as (_ & Hw & _).
  repeat split.
  - rewrite gen_bitfield_num_set_bits_eq by exact Hf. rewrite Hn. reflexivity.
  - rewrite gen_bitfield_highest_set_bit_eq by (try exact Hw; exact Hf). rewrite Hh. reflexivity.
  - rewrite gen_bitfield_is_zero_eq, Hz. reflexivity.
  - rewrite gen_bitfield_as_slice_eq, Hs. reflexivity.
  - rewrite gen_bitfield_len_eq, (R_len _ _ _ HR). reflexivity.
Qed.

Theorem Src_C11_eq fl a abits o obits :
  R fl (bf_abs a) abits -> R fl (bf_abs o) obits ->
  Gen.bitfield_eq a o = Ok (bits_eqb abits obits).
Proof.
  intros Ha Ho. rewrite gen_bitfield_eq_eq. f_equal. apply (R_eqb fl); assumption.
Qed.

Print Assumptions Src_C12_union.
Print Assumptions Src_C12_intersection.
Print Assumptions Src_C12_difference.
Print Assumptions Src_C12_subset.
Print Assumptions Src_C13_new.
Print Assumptions Src_C14_from_ssz_bytes.
Print Assumptions Src_C05_from_ssz_bytes_no_panic.
Print Assumptions Src_C14_dynamic_with_len.
Print Assumptions Src_C14_ssz_append.
Print Assumptions Src_C11_observations.
Print Assumptions Src_C11_eq.
