(** * Induction principles for [ty] and for typed values, and equations that replace the local
    fixpoints of the model by list functions, so that later proofs depend on this interface only. *)
From SSZ Require Import Base BaseFacts Offsets OffsetsFacts Encoder Builder Types Codec Spec.
From Coq Require Import PeanoNat.
Open Scope N_scope.

Section TyInd.
  Variable P : ty -> Prop.
  Hypothesis HUint : forall k, P (TUint k).
  Hypothesis HBool : P TBool.
  Hypothesis HNonZero : P TNonZero.
  Hypothesis HBytesN : forall n, P (TBytesN n).
  Hypothesis HByteList : P TByteList.
  Hypothesis HList : forall t, P t -> P (TList t).
  Hypothesis HSet : forall t, P t -> P (TSet t).
  Hypothesis HMap : forall k v, P k -> P v -> P (TMap k v).
  Hypothesis HOption : forall t, P t -> P (TOption t).
  Hypothesis HContainer : forall d fs, Forall P fs -> P (TContainer d fs).
  Hypothesis HUnion : forall vs, Forall P vs -> P (TUnion vs).
  Hypothesis HTag : forall n, P (TTag n).
  Hypothesis HTrans : forall vs, Forall P vs -> P (TTransEnum vs).
  Hypothesis HWrap : forall t, P t -> P (TWrap t).
  Hypothesis HBitVector : forall n, P (TBitVector n).
  Hypothesis HBitList : forall n, P (TBitList n).
  Hypothesis HBitDyn : P TBitDyn.
  Hypothesis HLegacy : forall t, P t -> P (TLegacyOpt t).

  Fixpoint ty_ind' (t : ty) : P t :=
    let fix all (l : list ty) : Forall P l :=
      match l with
      | [] => Forall_nil P
      | x :: r => Forall_cons x (ty_ind' x) (all r)
      end in
    match t with
    | TUint k => HUint k
    | TBool => HBool
    | TNonZero => HNonZero
    | TBytesN n => HBytesN n
    | TByteList => HByteList
    | TList a => HList a (ty_ind' a)
    | TSet a => HSet a (ty_ind' a)
    | TMap k v => HMap k v (ty_ind' k) (ty_ind' v)
    | TOption a => HOption a (ty_ind' a)
    | TContainer d fs => HContainer d fs (all fs)
    | TUnion vs => HUnion vs (all vs)
    | TTag n => HTag n
    | TTransEnum vs => HTrans vs (all vs)
    | TWrap a => HWrap a (ty_ind' a)
    | TBitVector n => HBitVector n
    | TBitList n => HBitList n
    | TBitDyn => HBitDyn
    | TLegacyOpt a => HLegacy a (ty_ind' a)
    end.
End TyInd.

(** The local fixpoints of the model come in three shapes besides [map], [forallb] and [existsb]
    (which they are up to conversion): a sum, a zip and a selection by index. *)
Lemma sum_fix {A} (g : A -> N) l :
  (fix sum l := match l with [] => 0 | x :: r => g x + sum r end) l = sumN (map g l).
Proof. induction l as [|x r IH]; cbn [map sumN]; [reflexivity|]. now rewrite IH. Qed.

Lemma zip_fix {A B C} (g : A -> B -> C) l1 l2 :
  (fix go l1 l2 := match l1, l2 with x :: r1, y :: r2 => g x y :: go r1 r2 | _, _ => [] end) l1 l2
  = map (fun p => g (fst p) (snd p)) (combine l1 l2).
Proof.
  revert l2. induction l1 as [|x r IH]; intros [|y l2]; cbn [combine map fst snd]; try reflexivity.
  now rewrite IH.
Qed.

Lemma pick_fix {A B} (g : A -> B) (d : B) l i :
  (fix pick l j := match l, j with [], _ => d | x :: _, O => g x | _ :: r, S j' => pick r j' end) l i
  = match nth_error l i with Some x => g x | None => d end.
Proof. revert i. induction l as [|x r IH]; intros [|i]; cbn [nth_error]; auto. Qed.

Lemma e_is_fixed_container d fs : e_is_fixed (TContainer d fs) = forallb e_is_fixed fs.
Proof. reflexivity. Qed.
Lemma d_is_fixed_container d fs : d_is_fixed (TContainer d fs) = forallb d_is_fixed fs.
Proof. reflexivity. Qed.

Lemma e_fixed_len_container d fs :
  e_fixed_len (TContainer d fs) =
  if forallb e_is_fixed fs then sumN (map e_fixed_len fs) else BYTES_PER_LENGTH_OFFSET.
Proof. cbn [e_fixed_len]. now rewrite sum_fix. Qed.
Lemma d_fixed_len_container d fs :
  d_fixed_len (TContainer d fs) =
  if forallb d_is_fixed fs then sumN (map d_fixed_len fs) else BYTES_PER_LENGTH_OFFSET.
Proof. cbn [d_fixed_len]. now rewrite sum_fix. Qed.

Lemma ty_all_list p (fs : list ty) :
  (fix all fs := match fs with [] => true | f :: r => ty_all p f && all r end) fs = forallb (ty_all p) fs.
Proof. reflexivity. Qed.

Lemma ty_all_inv p t :
  ty_all p t = true ->
  p t = true /\
  match t with
  | TList a | TSet a | TOption a | TWrap a | TLegacyOpt a => ty_all p a = true
  | TMap k v => ty_all p k = true /\ ty_all p v = true
  | TContainer _ fs | TUnion fs | TTransEnum fs => Forall (fun f => ty_all p f = true) fs
  | _ => True
  end.
Proof.
  destruct t; cbn [ty_all]; rewrite ?ty_all_list; intros H; apply andb_prop in H as [H1 H2]; split; auto;
    try (now apply andb_prop in H2); apply Forall_forall; now apply forallb_forall.
Qed.

Lemma has_ty_wrap t v : has_ty (TWrap t) v = has_ty t v.
Proof. destruct v; reflexivity. Qed.
Lemma key_type_container d fs : key_type (TContainer d fs) = forallb key_type fs.
Proof. cbn [key_type]. induction fs as [|f r IH]; cbn [forallb]; [reflexivity|]. now rewrite IH. Qed.

Definition has_ty_fields (fs : list ty) (vs : list val) : bool :=
  Nat.eqb (length fs) (length vs) && forallb (fun p => has_ty (fst p) (snd p)) (combine fs vs).

Lemma has_ty_fields_cons f fs v vs :
  has_ty_fields (f :: fs) (v :: vs) = has_ty f v && has_ty_fields fs vs.
Proof.
  unfold has_ty_fields. cbn [length Nat.eqb combine forallb fst snd].
  now rewrite !andb_assoc, (andb_comm (has_ty f v)).
Qed.
Lemma has_ty_fields_nil_l vs : has_ty_fields [] vs = match vs with [] => true | _ => false end.
Proof. destruct vs; reflexivity. Qed.
Lemma has_ty_fields_nil_r fs : has_ty_fields fs [] = match fs with [] => true | _ => false end.
Proof. destruct fs; reflexivity. Qed.

Lemma has_ty_container d fs vs : has_ty (TContainer d fs) (VCont vs) = has_ty_fields fs vs.
Proof.
  cbn [has_ty]. revert vs. induction fs as [|f r IH]; intros [|v vs]; try reflexivity.
  now rewrite has_ty_fields_cons, IH.
Qed.

Lemma has_ty_fields_Forall2 fs vs :
  has_ty_fields fs vs = true <-> Forall2 (fun f v => has_ty f v = true) fs vs.
Proof.
  split.
  - revert vs. induction fs as [|f r IH]; intros [|v vs] H; try discriminate H; constructor;
      rewrite has_ty_fields_cons in H; apply andb_prop in H; [apply H|apply IH, H].
  - induction 1 as [|f v fs vs Hv _ IH]; [reflexivity|]. now rewrite has_ty_fields_cons, Hv.
Qed.

Definition pick_has_ty (ts : list ty) (i : nat) (v : val) : bool :=
  match nth_error ts i with Some t => has_ty t v | None => false end.
Lemma has_ty_union ts i v :
  has_ty (TUnion ts) (VUnion i v) = Nat.leb (length ts) 128 && pick_has_ty ts i v.
Proof. cbn [has_ty]. now rewrite pick_fix. Qed.
Lemma has_ty_trans ts i v : has_ty (TTransEnum ts) (VUnion i v) = pick_has_ty ts i v.
Proof. apply pick_fix. Qed.

Lemma pick_has_ty_inv ts i v :
  pick_has_ty ts i v = true -> exists t, nth_error ts i = Some t /\ has_ty t v = true.
Proof. unfold pick_has_ty. destruct (nth_error ts i) as [t|]; [eauto|discriminate]. Qed.

(** Map entries are typed as pairs, so a typed map is a typed list of pairs. *)
Lemma has_ty_map_entries k v es :
  has_ty (TMap k v) (VList es) = true ->
  Forall (fun e => exists a c, e = VCont [a; c] /\ has_ty k a = true /\ has_ty v c = true) es.
Proof.
  intros H. cbn [has_ty] in H. apply andb_prop in H as [H _]. rewrite forallb_forall in H.
  apply Forall_forall. intros e He. specialize (H e He).
  destruct e as [| | | | | |[|a [|c [|]]]| | |]; try discriminate H. apply andb_prop in H. eauto.
Qed.

Lemma has_ty_map_list k v es :
  has_ty (TMap k v) (VList es) = true -> has_ty (TList (TContainer false [k; v])) (VList es) = true.
Proof.
  intros H%has_ty_map_entries. change (forallb (has_ty (TContainer false [k; v])) es = true).
  apply forallb_forall. rewrite Forall_forall in H.
  intros e (a & c & -> & Ha & Hc)%H. now rewrite has_ty_container, !has_ty_fields_cons, Ha, Hc.
Qed.

(** Induction over typed values: one case for each way [has_ty t v] can hold, with the side
    conditions as propositions.  A map is presented as the list of its entries at the pair type. *)
Section TypedInd.
  Variable P : ty -> val -> Prop.
  Hypothesis HUint : forall k n, n < 2 ^ (8 * N.of_nat k) -> P (TUint k) (VUint n).
  Hypothesis HBool : forall b, P TBool (VBool b).
  Hypothesis HNonZero : forall n, 0 < n -> n < 2 ^ 64 -> P TNonZero (VUint n).
  Hypothesis HBytesN : forall n bs, wfb bs -> length bs = n -> P (TBytesN n) (VBytes bs).
  Hypothesis HByteList : forall bs, wfb bs -> P TByteList (VBytes bs).
  Hypothesis HList : forall t vs,
    forallb (has_ty t) vs = true -> Forall (P t) vs -> P (TList t) (VList vs).
  Hypothesis HSet : forall t vs,
    forallb (has_ty t) vs = true -> strictly_sorted false vs = true -> Forall (P t) vs ->
    P (TSet t) (VList vs).
  Hypothesis HMap : forall k v es,
    has_ty (TMap k v) (VList es) = true -> P (TList (TContainer false [k; v])) (VList es) ->
    P (TMap k v) (VList es).
  Hypothesis HNone : forall t, P (TOption t) VNone.
  Hypothesis HSome : forall t x, has_ty t x = true -> P t x -> P (TOption t) (VSome x).
  Hypothesis HContainer : forall d fs vs,
    has_ty_fields fs vs = true -> Forall2 P fs vs -> P (TContainer d fs) (VCont vs).
  Hypothesis HUnion : forall ts i t x,
    (length ts <= 128)%nat -> nth_error ts i = Some t -> has_ty t x = true -> P t x ->
    P (TUnion ts) (VUnion i x).
  Hypothesis HTag : forall n i, (i < n)%nat -> (n <= 128)%nat -> P (TTag n) (VTag i).
  Hypothesis HTrans : forall ts i t x,
    nth_error ts i = Some t -> has_ty t x = true -> P t x -> P (TTransEnum ts) (VUnion i x).
  Hypothesis HWrap : forall t x, has_ty t x = true -> P t x -> P (TWrap t) x.
  Hypothesis HBitVector : forall n bits, N.of_nat (length bits) = n -> P (TBitVector n) (VBits bits).
  Hypothesis HBitList : forall n bits, N.of_nat (length bits) <= n -> P (TBitList n) (VBits bits).
  Hypothesis HBitDyn : forall bits,
    (0 < length bits)%nat -> N.of_nat (length bits) mod 8 = 0 -> P TBitDyn (VBits bits).
  Hypothesis HLegacyNone : forall t, P (TLegacyOpt t) VNone.
  Hypothesis HLegacySome : forall t x, has_ty t x = true -> P t x -> P (TLegacyOpt t) (VSome x).

  Let typed t := forall v, has_ty t v = true -> P t v.

  Lemma typed_list t vs : typed t -> forallb (has_ty t) vs = true -> Forall (P t) vs.
  Proof. intros IH H. rewrite forallb_forall in H. apply Forall_forall. auto. Qed.

  Lemma typed_fields d fs : Forall typed fs -> typed (TContainer d fs).
  Proof.
    intros IH [| | | | | |vs| | |] Hv; try discriminate Hv. rewrite has_ty_container in Hv.
    apply HContainer; [exact Hv|]. apply has_ty_fields_Forall2 in Hv.
    revert IH. induction Hv; intros IH; inversion IH; subst; constructor; auto.
  Qed.

  Lemma typed_pick ts i v :
    Forall typed ts -> pick_has_ty ts i v = true ->
    exists t, nth_error ts i = Some t /\ has_ty t v = true /\ P t v.
  Proof.
    intros IH (t & E & Hv)%pick_has_ty_inv. rewrite Forall_forall in IH.
    exists t. repeat split; auto. exact (IH t (nth_error_In _ _ E) v Hv).
  Qed.

  Theorem typed_ind t : forall v, has_ty t v = true -> P t v.
  Proof.
    (* every value can inhabit [TWrap t], so that case goes before the split on [v] *)
    fold (typed t). induction t using ty_ind'; try (now apply typed_fields);
      intros v Hv; try (apply HWrap; solve [auto]);
      try (destruct v; try discriminate Hv; rewrite ?has_ty_union, ?has_ty_trans in Hv; cbn [has_ty] in Hv).
    - apply HUint. now apply N.ltb_lt.
    - apply HBool.
    - apply andb_prop in Hv as [H0 H1]. apply HNonZero; now apply N.ltb_lt.
    - apply andb_prop in Hv as [Hw Hl]. apply HBytesN; [now apply wfbb_wfb|now apply Nat.eqb_eq].
    - apply HByteList. now apply wfbb_wfb.
    - apply HList; [|apply typed_list]; assumption.
    - apply andb_prop in Hv as [Hv Hs]. apply HSet; [| |apply typed_list]; assumption.
    - apply HMap; [exact Hv|]. pose proof (has_ty_map_list _ _ _ Hv) as Hl.
      apply HList; [exact Hl|]. apply typed_list; [|exact Hl].
      apply typed_fields. repeat constructor; assumption.
    - apply HNone.
    - apply HSome; auto.
    - apply andb_prop in Hv as [Hn Hv].
      destruct (typed_pick _ _ _ H Hv) as (t & E & Ht & HP). apply Nat.leb_le in Hn. eapply HUnion; eauto.
    - apply andb_prop in Hv as [Hi Hn]. apply HTag; [now apply Nat.ltb_lt|now apply Nat.leb_le].
    - destruct (typed_pick _ _ _ H Hv) as (t & E & Ht & HP). eapply HTrans; eauto.
    - apply HBitVector. now apply N.eqb_eq.
    - apply HBitList. now apply N.leb_le.
    - apply andb_prop in Hv as [H0 H8]. apply HBitDyn; [|now apply N.eqb_eq].
      destruct bits; [discriminate H0|apply Nat.lt_0_succ].
    - apply HLegacyNone.
    - apply HLegacySome; auto.
  Qed.
End TypedInd.

Definition cont_items (fs : list ty) (vs : list val) : list (bool * (bytes -> bytes)) :=
  map (fun p => (e_is_fixed (fst p), append (fst p) (snd p))) (combine fs vs).

Lemma append_container d fs vs buf :
  append (TContainer d fs) (VCont vs) buf =
  enc_run buf (sumN (map e_fixed_len fs)) (cont_items fs vs).
Proof. cbn [append]. now rewrite sum_fix, zip_fix. Qed.

Lemma append_union ts i x buf :
  append (TUnion ts) (VUnion i x) buf =
  match nth_error ts i with Some t => append t x (buf ++ [N.of_nat i]) | None => buf end.
Proof. apply (pick_fix (fun t => append t x (buf ++ [N.of_nat i]))). Qed.
Lemma append_trans ts i x buf :
  append (TTransEnum ts) (VUnion i x) buf =
  match nth_error ts i with Some t => append t x buf | None => buf end.
Proof. apply (pick_fix (fun t => append t x buf)). Qed.

Definition field_len (f : ty) (x : val) : N :=
  if e_is_fixed f then e_fixed_len f else BYTES_PER_LENGTH_OFFSET + bytes_len f x.
Lemma bytes_len_container d fs vs :
  bytes_len (TContainer d fs) (VCont vs) =
  if forallb e_is_fixed fs then sumN (map e_fixed_len fs)
  else sumN (map (fun p => field_len (fst p) (snd p)) (combine fs vs)).
Proof.
  cbn [bytes_len]. fold (e_fixed_len (TContainer d fs)). rewrite e_fixed_len_container.
  change (e_is_fixed (TContainer d fs)) with (forallb e_is_fixed fs).
  destruct (forallb e_is_fixed fs); [reflexivity|].
  revert vs. induction fs as [|f r IH]; intros [|v vs]; cbn [combine map sumN fst snd]; try reflexivity.
  now rewrite IH.
Qed.
Lemma bytes_len_union ts i x :
  bytes_len (TUnion ts) (VUnion i x) =
  match nth_error ts i with Some t => bytes_len t x + 1 | None => 0 end.
Proof. apply (pick_fix (fun t => bytes_len t x + 1)). Qed.
Lemma bytes_len_trans ts i x :
  bytes_len (TTransEnum ts) (VUnion i x) =
  match nth_error ts i with Some t => bytes_len t x | None => 0 end.
Proof. apply (pick_fix (fun t => bytes_len t x)). Qed.

Fixpoint split_dec (fs : list (N * (bytes -> outcome val))) (rest : bytes) : outcome (list val) :=
  match fs with
  | [] => Ok []
  | (l, d) :: fr =>
      do p <- split_at rest l;
      do x <- d (fst p);
      do xs <- split_dec fr (snd p);
      Ok (x :: xs)
  end.

Definition regs_of (fs : list ty) : list (bool * N) := map (fun f => (d_is_fixed f, d_fixed_len f)) fs.

Lemma dec_container d fs bs :
  dec (TContainer d fs) bs =
  if d && forallb d_is_fixed fs then
    if negb (len bs =? sumN (map d_fixed_len fs)) then Err
    else omap VCont (split_dec (map (fun f => (d_fixed_len f, dec f)) fs) bs)
  else
    do items <- builder_build (regs_of fs) bs;
    omap VCont (decode_all items (map dec fs)).
Proof.
  cbn [dec]. change (_ && _) with (d && forallb d_is_fixed fs).
  destruct (d && forallb d_is_fixed fs); [|reflexivity].
  rewrite sum_fix. destruct (negb _); [reflexivity|]. f_equal.
  revert bs. induction fs as [|f r IH]; intros bs; cbn [map split_dec]; [reflexivity|].
  destruct (split_at bs (d_fixed_len f)) as [[a b]| |]; cbn [bind fst snd]; try reflexivity.
  destruct (dec f a); cbn [bind]; try reflexivity. now rewrite IH.
Qed.

Lemma dec_union ts bs :
  dec (TUnion ts) bs =
  do p <- split_union_bytes bs;
  match nth_error ts (N.to_nat (fst p)) with
  | Some t => omap (VUnion (N.to_nat (fst p))) (dec t (snd p))
  | None => Err
  end.
Proof.
  cbn [dec]. destruct (split_union_bytes bs) as [[sel body]| |]; cbn [bind fst snd]; try reflexivity.
  generalize (N.to_nat sel) at 2 4 as idx. generalize (N.to_nat sel) as j.
  induction ts as [|t r IH]; intros [|j] idx; cbn [nth_error]; try reflexivity. apply IH.
Qed.

(** C15: the selector rules of unions and of [Option], for every selector byte and body. *)
Theorem dec_union_selector ts s body :
  dec (TUnion ts) (s :: body) =
  if s <=? 127 then
    match nth_error ts (N.to_nat s) with
    | Some t => omap (VUnion (N.to_nat s)) (dec t body)
    | None => Err
    end
  else Err.
Proof.
  rewrite dec_union, split_union_bytes_spec. destruct (s <=? 127); reflexivity.
Qed.
Theorem dec_union_empty ts : dec (TUnion ts) [] = Err.
Proof. now rewrite dec_union. Qed.
Theorem dec_option_selector t s body :
  dec (TOption t) (s :: body) =
  if s =? 0 then (match body with [] => Ok VNone | _ => Err end)
  else if s =? 1 then omap VSome (dec t body) else Err.
Proof.
  cbn [dec]. rewrite split_union_bytes_spec. destruct (s <=? 127) eqn:E; cbn [bind]; [reflexivity|].
  replace (s =? 0) with false by lia. now replace (s =? 1) with false by lia.
Qed.
Lemma dec_option_empty t : dec (TOption t) [] = Err.
Proof. reflexivity. Qed.

Fixpoint first_ok (ds : list (bytes -> outcome val)) (bs : bytes) (idx : nat) : outcome val :=
  match ds with
  | [] => Err
  | d :: r => match d bs with
              | Ok x => Ok (VUnion idx x)
              | Err => first_ok r bs (S idx)
              | Panic => Panic
              end
  end.
Lemma dec_trans ts bs : dec (TTransEnum ts) bs = first_ok (map dec ts) bs 0.
Proof.
  cbn [dec]. generalize 0%nat as idx.
  induction ts as [|t r IH]; intros idx; cbn [map first_ok]; [reflexivity|].
  destruct (dec t bs); try reflexivity. apply IH.
Qed.

Definition spec_elems (fs : list ty) (vs : list val) : list (bool * bytes) :=
  map (fun p => (is_variable (fst p), spec_enc (fst p) (snd p))) (combine fs vs).
Lemma spec_enc_container d fs vs :
  spec_enc (TContainer d fs) (VCont vs) = spec_series (spec_elems fs vs).
Proof. cbn [spec_enc]. now rewrite zip_fix. Qed.
Lemma is_variable_container d fs : is_variable (TContainer d fs) = existsb is_variable fs.
Proof. reflexivity. Qed.
Lemma spec_enc_union ts i x :
  spec_enc (TUnion ts) (VUnion i x) =
  match nth_error ts i with Some t => N.of_nat i :: spec_enc t x | None => [] end.
Proof. apply (pick_fix (fun t => N.of_nat i :: spec_enc t x)). Qed.
Lemma spec_enc_trans ts i x :
  spec_enc (TTransEnum ts) (VUnion i x) =
  match nth_error ts i with Some t => spec_enc t x | None => [] end.
Proof. apply (pick_fix (fun t => spec_enc t x)). Qed.
