(** * GenEquivTupleN: the tuple impls of arity 5 to 12 (the same two macros at more repetitions), decoder,
    encoder, size metadata and [ssz_bytes_len], equal to the model's container codec for every component type.  This file is written by
    tools/gen_tuple_proofs.py: each statement is the chain lemma of GenEquivTuple.v at the literal list of the arity's
    components, so the kernel's work per theorem is unfolding the chain over that list. *)
From SSZ Require Import Base RustSem Offsets Encoder Builder Types Codec CodecUnfold BaseFacts OffsetsFacts AppendFacts MetaFacts
     Generated GenEquiv GenEquivDec GenEquivEnc GenProps GeneratedDerive GenEquivDerive GenEquivDerive2 GenEquivTuple.
From Coq Require Import ZArith ZifyN ZifyBool ZifyNat Lia.
Open Scope N_scope.

(** one component of [ssz_bytes_len]'s running sum, whatever its size class *)
Lemma tuple_len_step {B} (I : bool) (F bl acc : N) (k : N -> outcome B) :
  acc + (if I then F else 4 + bl) <= usize_max ->
  (do t <- (if I then Ok F else usize_add 4 bl); do s <- usize_add acc t; k s)
  = k (acc + (if I then F else 4 + bl)).
Proof. exact (len_chain_cons I F bl [] acc k). Qed.

Definition tup5 (vs : list val) : outcome (val * val * val * val * val) :=
  match vs with [av; bv; cv; dv; ev] => Ok (av, bv, cv, dv, ev) | _ => Err end.

Theorem gen_tuple5_from_ssz_bytes tA tB tC tD tE bs :
  omap (fun p : val * val * val * val * val => VCont [(fst (fst (fst (fst p)))); (snd (fst (fst (fst p)))); (snd (fst (fst p))); (snd (fst p)); (snd p)])
    (GenD.tuple5_from_ssz_bytes (d_is_fixed tA) (d_fixed_len tA) (dec tA) (d_is_fixed tB) (d_fixed_len tB) (dec tB) (d_is_fixed tC) (d_fixed_len tC) (dec tC) (d_is_fixed tD) (d_fixed_len tD) (dec tD) (d_is_fixed tE) (d_fixed_len tE) (dec tE) bs)
  = dec (TContainer false [tA; tB; tC; tD; tE]) bs.
Proof.
  apply (from_chain_dec [tA; tB; tC; tD; tE] bs tup5).
  intros [|av [|bv [|cv [|dv [|ev [|]]]]]]; try discriminate. reflexivity.
Qed.

Theorem gen_tuple5_ssz_append tA tB tC tD tE av bv cv dv ev buf :
  e_fixed_len tA + e_fixed_len tB + e_fixed_len tC + e_fixed_len tD + e_fixed_len tE + len (enc tA av) + len (enc tB bv) + len (enc tC cv) + len (enc tD dv) <= usize_max ->
  GenD.tuple5_ssz_append (e_is_fixed tA) (e_fixed_len tA) (app_of tA) (e_is_fixed tB) (e_fixed_len tB) (app_of tB) (e_is_fixed tC) (e_fixed_len tC) (app_of tC) (e_is_fixed tD) (e_fixed_len tD) (app_of tD) (e_is_fixed tE) (e_fixed_len tE) (app_of tE) (av, bv, cv, dv, ev) buf
  = Ok (append (TContainer false [tA; tB; tC; tD; tE]) (VCont [av; bv; cv; dv; ev]) buf).
Proof.
  intro H. apply (append_chain_run_eq tA [tB; tC; tD; tE] [av; bv; cv; dv; ev]).
  cbn [fold_left map app removelast combine]. exact H.
Qed.

Print Assumptions gen_tuple5_from_ssz_bytes.
Print Assumptions gen_tuple5_ssz_append.

Theorem gen_tuple5_enc_metadata tA tB tC tD tE :
  e_fixed_len tA + e_fixed_len tB + e_fixed_len tC + e_fixed_len tD + e_fixed_len tE <= usize_max ->
  GenD.tuple5_enc_is_ssz_fixed_len (e_is_fixed tA) (e_is_fixed tB) (e_is_fixed tC) (e_is_fixed tD) (e_is_fixed tE) = Ok (e_is_fixed (TContainer false [tA; tB; tC; tD; tE])) /\
  GenD.tuple5_enc_ssz_fixed_len (e_is_fixed tA) (e_fixed_len tA) (e_is_fixed tB) (e_fixed_len tB) (e_is_fixed tC) (e_fixed_len tC) (e_is_fixed tD) (e_fixed_len tD) (e_is_fixed tE) (e_fixed_len tE)
    = Ok (e_fixed_len (TContainer false [tA; tB; tC; tD; tE])).
Proof.
  intro H. split.
  - exact (f_equal Ok (all_chain_eq e_is_fixed tA [tB; tC; tD; tE])).
  - apply (fixed_len_chain_eq e_is_fixed e_fixed_len tA [tB; tC; tD; tE]). cbn [fold_left map]. exact H.
Qed.

Theorem gen_tuple5_dec_metadata tA tB tC tD tE :
  d_fixed_len tA + d_fixed_len tB + d_fixed_len tC + d_fixed_len tD + d_fixed_len tE <= usize_max ->
  GenD.tuple5_dec_is_ssz_fixed_len (d_is_fixed tA) (d_is_fixed tB) (d_is_fixed tC) (d_is_fixed tD) (d_is_fixed tE) = Ok (d_is_fixed (TContainer false [tA; tB; tC; tD; tE])) /\
  GenD.tuple5_dec_ssz_fixed_len (d_is_fixed tA) (d_fixed_len tA) (d_is_fixed tB) (d_fixed_len tB) (d_is_fixed tC) (d_fixed_len tC) (d_is_fixed tD) (d_fixed_len tD) (d_is_fixed tE) (d_fixed_len tE)
    = Ok (d_fixed_len (TContainer false [tA; tB; tC; tD; tE])).
Proof.
  intro H. split.
  - exact (f_equal Ok (all_chain_eq d_is_fixed tA [tB; tC; tD; tE])).
  - apply (fixed_len_chain_eq d_is_fixed d_fixed_len tA [tB; tC; tD; tE]). cbn [fold_left map]. exact H.
Qed.

Theorem gen_tuple5_ssz_bytes_len tA tB tC tD tE av bv cv dv ev :
  e_fixed_len tA + e_fixed_len tB + e_fixed_len tC + e_fixed_len tD + e_fixed_len tE <= usize_max ->
  field_len tA av + field_len tB bv + field_len tC cv + field_len tD dv + field_len tE ev <= usize_max ->
  GenD.tuple5_ssz_bytes_len (e_is_fixed tA) (e_fixed_len tA) (len_of tA) (e_is_fixed tB) (e_fixed_len tB) (len_of tB) (e_is_fixed tC) (e_fixed_len tC) (len_of tC) (e_is_fixed tD) (e_fixed_len tD) (len_of tD) (e_is_fixed tE) (e_fixed_len tE) (len_of tE) (av, bv, cv, dv, ev)
  = Ok (bytes_len (TContainer false [tA; tB; tC; tD; tE]) (VCont [av; bv; cv; dv; ev])).
Proof.
  intros HF H. apply (len_chain_run_eq tA [tB; tC; tD; tE] av [bv; cv; dv; ev]); cbn [fold_left map combine fst snd]; assumption.
Qed.

Print Assumptions gen_tuple5_enc_metadata.
Print Assumptions gen_tuple5_dec_metadata.
Print Assumptions gen_tuple5_ssz_bytes_len.

Definition tup6 (vs : list val) : outcome (val * val * val * val * val * val) :=
  match vs with [av; bv; cv; dv; ev; fv] => Ok (av, bv, cv, dv, ev, fv) | _ => Err end.

Theorem gen_tuple6_from_ssz_bytes tA tB tC tD tE tF bs :
  omap (fun p : val * val * val * val * val * val => VCont [(fst (fst (fst (fst (fst p))))); (snd (fst (fst (fst (fst p))))); (snd (fst (fst (fst p)))); (snd (fst (fst p))); (snd (fst p)); (snd p)])
    (GenD.tuple6_from_ssz_bytes (d_is_fixed tA) (d_fixed_len tA) (dec tA) (d_is_fixed tB) (d_fixed_len tB) (dec tB) (d_is_fixed tC) (d_fixed_len tC) (dec tC) (d_is_fixed tD) (d_fixed_len tD) (dec tD) (d_is_fixed tE) (d_fixed_len tE) (dec tE) (d_is_fixed tF) (d_fixed_len tF) (dec tF) bs)
  = dec (TContainer false [tA; tB; tC; tD; tE; tF]) bs.
Proof.
  apply (from_chain_dec [tA; tB; tC; tD; tE; tF] bs tup6).
  intros [|av [|bv [|cv [|dv [|ev [|fv [|]]]]]]]; try discriminate. reflexivity.
Qed.

Theorem gen_tuple6_ssz_append tA tB tC tD tE tF av bv cv dv ev fv buf :
  e_fixed_len tA + e_fixed_len tB + e_fixed_len tC + e_fixed_len tD + e_fixed_len tE + e_fixed_len tF + len (enc tA av) + len (enc tB bv) + len (enc tC cv) + len (enc tD dv) + len (enc tE ev) <= usize_max ->
  GenD.tuple6_ssz_append (e_is_fixed tA) (e_fixed_len tA) (app_of tA) (e_is_fixed tB) (e_fixed_len tB) (app_of tB) (e_is_fixed tC) (e_fixed_len tC) (app_of tC) (e_is_fixed tD) (e_fixed_len tD) (app_of tD) (e_is_fixed tE) (e_fixed_len tE) (app_of tE) (e_is_fixed tF) (e_fixed_len tF) (app_of tF) (av, bv, cv, dv, ev, fv) buf
  = Ok (append (TContainer false [tA; tB; tC; tD; tE; tF]) (VCont [av; bv; cv; dv; ev; fv]) buf).
Proof.
  intro H. apply (append_chain_run_eq tA [tB; tC; tD; tE; tF] [av; bv; cv; dv; ev; fv]).
  cbn [fold_left map app removelast combine]. exact H.
Qed.

Print Assumptions gen_tuple6_from_ssz_bytes.
Print Assumptions gen_tuple6_ssz_append.

Theorem gen_tuple6_enc_metadata tA tB tC tD tE tF :
  e_fixed_len tA + e_fixed_len tB + e_fixed_len tC + e_fixed_len tD + e_fixed_len tE + e_fixed_len tF <= usize_max ->
  GenD.tuple6_enc_is_ssz_fixed_len (e_is_fixed tA) (e_is_fixed tB) (e_is_fixed tC) (e_is_fixed tD) (e_is_fixed tE) (e_is_fixed tF) = Ok (e_is_fixed (TContainer false [tA; tB; tC; tD; tE; tF])) /\
  GenD.tuple6_enc_ssz_fixed_len (e_is_fixed tA) (e_fixed_len tA) (e_is_fixed tB) (e_fixed_len tB) (e_is_fixed tC) (e_fixed_len tC) (e_is_fixed tD) (e_fixed_len tD) (e_is_fixed tE) (e_fixed_len tE) (e_is_fixed tF) (e_fixed_len tF)
    = Ok (e_fixed_len (TContainer false [tA; tB; tC; tD; tE; tF])).
Proof.
  intro H. split.
  - exact (f_equal Ok (all_chain_eq e_is_fixed tA [tB; tC; tD; tE; tF])).
  - apply (fixed_len_chain_eq e_is_fixed e_fixed_len tA [tB; tC; tD; tE; tF]). cbn [fold_left map]. exact H.
Qed.

Theorem gen_tuple6_dec_metadata tA tB tC tD tE tF :
  d_fixed_len tA + d_fixed_len tB + d_fixed_len tC + d_fixed_len tD + d_fixed_len tE + d_fixed_len tF <= usize_max ->
  GenD.tuple6_dec_is_ssz_fixed_len (d_is_fixed tA) (d_is_fixed tB) (d_is_fixed tC) (d_is_fixed tD) (d_is_fixed tE) (d_is_fixed tF) = Ok (d_is_fixed (TContainer false [tA; tB; tC; tD; tE; tF])) /\
  GenD.tuple6_dec_ssz_fixed_len (d_is_fixed tA) (d_fixed_len tA) (d_is_fixed tB) (d_fixed_len tB) (d_is_fixed tC) (d_fixed_len tC) (d_is_fixed tD) (d_fixed_len tD) (d_is_fixed tE) (d_fixed_len tE) (d_is_fixed tF) (d_fixed_len tF)
    = Ok (d_fixed_len (TContainer false [tA; tB; tC; tD; tE; tF])).
Proof.
  intro H. split.
  - exact (f_equal Ok (all_chain_eq d_is_fixed tA [tB; tC; tD; tE; tF])).
  - apply (fixed_len_chain_eq d_is_fixed d_fixed_len tA [tB; tC; tD; tE; tF]). cbn [fold_left map]. exact H.
Qed.

Theorem gen_tuple6_ssz_bytes_len tA tB tC tD tE tF av bv cv dv ev fv :
  e_fixed_len tA + e_fixed_len tB + e_fixed_len tC + e_fixed_len tD + e_fixed_len tE + e_fixed_len tF <= usize_max ->
  field_len tA av + field_len tB bv + field_len tC cv + field_len tD dv + field_len tE ev + field_len tF fv <= usize_max ->
  GenD.tuple6_ssz_bytes_len (e_is_fixed tA) (e_fixed_len tA) (len_of tA) (e_is_fixed tB) (e_fixed_len tB) (len_of tB) (e_is_fixed tC) (e_fixed_len tC) (len_of tC) (e_is_fixed tD) (e_fixed_len tD) (len_of tD) (e_is_fixed tE) (e_fixed_len tE) (len_of tE) (e_is_fixed tF) (e_fixed_len tF) (len_of tF) (av, bv, cv, dv, ev, fv)
  = Ok (bytes_len (TContainer false [tA; tB; tC; tD; tE; tF]) (VCont [av; bv; cv; dv; ev; fv])).
Proof.
  intros HF H. apply (len_chain_run_eq tA [tB; tC; tD; tE; tF] av [bv; cv; dv; ev; fv]); cbn [fold_left map combine fst snd]; assumption.
Qed.

Print Assumptions gen_tuple6_enc_metadata.
Print Assumptions gen_tuple6_dec_metadata.
Print Assumptions gen_tuple6_ssz_bytes_len.

Definition tup7 (vs : list val) : outcome (val * val * val * val * val * val * val) :=
  match vs with [av; bv; cv; dv; ev; fv; gv] => Ok (av, bv, cv, dv, ev, fv, gv) | _ => Err end.

Theorem gen_tuple7_from_ssz_bytes tA tB tC tD tE tF tG bs :
  omap (fun p : val * val * val * val * val * val * val => VCont [(fst (fst (fst (fst (fst (fst p)))))); (snd (fst (fst (fst (fst (fst p)))))); (snd (fst (fst (fst (fst p))))); (snd (fst (fst (fst p)))); (snd (fst (fst p))); (snd (fst p)); (snd p)])
    (GenD.tuple7_from_ssz_bytes (d_is_fixed tA) (d_fixed_len tA) (dec tA) (d_is_fixed tB) (d_fixed_len tB) (dec tB) (d_is_fixed tC) (d_fixed_len tC) (dec tC) (d_is_fixed tD) (d_fixed_len tD) (dec tD) (d_is_fixed tE) (d_fixed_len tE) (dec tE) (d_is_fixed tF) (d_fixed_len tF) (dec tF) (d_is_fixed tG) (d_fixed_len tG) (dec tG) bs)
  = dec (TContainer false [tA; tB; tC; tD; tE; tF; tG]) bs.
Proof.
  apply (from_chain_dec [tA; tB; tC; tD; tE; tF; tG] bs tup7).
  intros [|av [|bv [|cv [|dv [|ev [|fv [|gv [|]]]]]]]]; try discriminate. reflexivity.
Qed.

Theorem gen_tuple7_ssz_append tA tB tC tD tE tF tG av bv cv dv ev fv gv buf :
  e_fixed_len tA + e_fixed_len tB + e_fixed_len tC + e_fixed_len tD + e_fixed_len tE + e_fixed_len tF + e_fixed_len tG + len (enc tA av) + len (enc tB bv) + len (enc tC cv) + len (enc tD dv) + len (enc tE ev) + len (enc tF fv) <= usize_max ->
  GenD.tuple7_ssz_append (e_is_fixed tA) (e_fixed_len tA) (app_of tA) (e_is_fixed tB) (e_fixed_len tB) (app_of tB) (e_is_fixed tC) (e_fixed_len tC) (app_of tC) (e_is_fixed tD) (e_fixed_len tD) (app_of tD) (e_is_fixed tE) (e_fixed_len tE) (app_of tE) (e_is_fixed tF) (e_fixed_len tF) (app_of tF) (e_is_fixed tG) (e_fixed_len tG) (app_of tG) (av, bv, cv, dv, ev, fv, gv) buf
  = Ok (append (TContainer false [tA; tB; tC; tD; tE; tF; tG]) (VCont [av; bv; cv; dv; ev; fv; gv]) buf).
Proof.
  intro H. apply (append_chain_run_eq tA [tB; tC; tD; tE; tF; tG] [av; bv; cv; dv; ev; fv; gv]).
  cbn [fold_left map app removelast combine]. exact H.
Qed.

Print Assumptions gen_tuple7_from_ssz_bytes.
Print Assumptions gen_tuple7_ssz_append.

Theorem gen_tuple7_enc_metadata tA tB tC tD tE tF tG :
  e_fixed_len tA + e_fixed_len tB + e_fixed_len tC + e_fixed_len tD + e_fixed_len tE + e_fixed_len tF + e_fixed_len tG <= usize_max ->
  GenD.tuple7_enc_is_ssz_fixed_len (e_is_fixed tA) (e_is_fixed tB) (e_is_fixed tC) (e_is_fixed tD) (e_is_fixed tE) (e_is_fixed tF) (e_is_fixed tG) = Ok (e_is_fixed (TContainer false [tA; tB; tC; tD; tE; tF; tG])) /\
  GenD.tuple7_enc_ssz_fixed_len (e_is_fixed tA) (e_fixed_len tA) (e_is_fixed tB) (e_fixed_len tB) (e_is_fixed tC) (e_fixed_len tC) (e_is_fixed tD) (e_fixed_len tD) (e_is_fixed tE) (e_fixed_len tE) (e_is_fixed tF) (e_fixed_len tF) (e_is_fixed tG) (e_fixed_len tG)
    = Ok (e_fixed_len (TContainer false [tA; tB; tC; tD; tE; tF; tG])).
Proof.
  intro H. split.
  - exact (f_equal Ok (all_chain_eq e_is_fixed tA [tB; tC; tD; tE; tF; tG])).
  - apply (fixed_len_chain_eq e_is_fixed e_fixed_len tA [tB; tC; tD; tE; tF; tG]). cbn [fold_left map]. exact H.
Qed.

Theorem gen_tuple7_dec_metadata tA tB tC tD tE tF tG :
  d_fixed_len tA + d_fixed_len tB + d_fixed_len tC + d_fixed_len tD + d_fixed_len tE + d_fixed_len tF + d_fixed_len tG <= usize_max ->
  GenD.tuple7_dec_is_ssz_fixed_len (d_is_fixed tA) (d_is_fixed tB) (d_is_fixed tC) (d_is_fixed tD) (d_is_fixed tE) (d_is_fixed tF) (d_is_fixed tG) = Ok (d_is_fixed (TContainer false [tA; tB; tC; tD; tE; tF; tG])) /\
  GenD.tuple7_dec_ssz_fixed_len (d_is_fixed tA) (d_fixed_len tA) (d_is_fixed tB) (d_fixed_len tB) (d_is_fixed tC) (d_fixed_len tC) (d_is_fixed tD) (d_fixed_len tD) (d_is_fixed tE) (d_fixed_len tE) (d_is_fixed tF) (d_fixed_len tF) (d_is_fixed tG) (d_fixed_len tG)
    = Ok (d_fixed_len (TContainer false [tA; tB; tC; tD; tE; tF; tG])).
Proof.
  intro H. split.
  - exact (f_equal Ok (all_chain_eq d_is_fixed tA [tB; tC; tD; tE; tF; tG])).
  - apply (fixed_len_chain_eq d_is_fixed d_fixed_len tA [tB; tC; tD; tE; tF; tG]). cbn [fold_left map]. exact H.
Qed.

Theorem gen_tuple7_ssz_bytes_len tA tB tC tD tE tF tG av bv cv dv ev fv gv :
  e_fixed_len tA + e_fixed_len tB + e_fixed_len tC + e_fixed_len tD + e_fixed_len tE + e_fixed_len tF + e_fixed_len tG <= usize_max ->
  field_len tA av + field_len tB bv + field_len tC cv + field_len tD dv + field_len tE ev + field_len tF fv + field_len tG gv <= usize_max ->
  GenD.tuple7_ssz_bytes_len (e_is_fixed tA) (e_fixed_len tA) (len_of tA) (e_is_fixed tB) (e_fixed_len tB) (len_of tB) (e_is_fixed tC) (e_fixed_len tC) (len_of tC) (e_is_fixed tD) (e_fixed_len tD) (len_of tD) (e_is_fixed tE) (e_fixed_len tE) (len_of tE) (e_is_fixed tF) (e_fixed_len tF) (len_of tF) (e_is_fixed tG) (e_fixed_len tG) (len_of tG) (av, bv, cv, dv, ev, fv, gv)
  = Ok (bytes_len (TContainer false [tA; tB; tC; tD; tE; tF; tG]) (VCont [av; bv; cv; dv; ev; fv; gv])).
Proof.
  intros HF H. apply (len_chain_run_eq tA [tB; tC; tD; tE; tF; tG] av [bv; cv; dv; ev; fv; gv]); cbn [fold_left map combine fst snd]; assumption.
Qed.

Print Assumptions gen_tuple7_enc_metadata.
Print Assumptions gen_tuple7_dec_metadata.
Print Assumptions gen_tuple7_ssz_bytes_len.

Definition tup8 (vs : list val) : outcome (val * val * val * val * val * val * val * val) :=
  match vs with [av; bv; cv; dv; ev; fv; gv; hv] => Ok (av, bv, cv, dv, ev, fv, gv, hv) | _ => Err end.

Theorem gen_tuple8_from_ssz_bytes tA tB tC tD tE tF tG tH bs :
  omap (fun p : val * val * val * val * val * val * val * val => VCont [(fst (fst (fst (fst (fst (fst (fst p))))))); (snd (fst (fst (fst (fst (fst (fst p))))))); (snd (fst (fst (fst (fst (fst p)))))); (snd (fst (fst (fst (fst p))))); (snd (fst (fst (fst p)))); (snd (fst (fst p))); (snd (fst p)); (snd p)])
    (GenD.tuple8_from_ssz_bytes (d_is_fixed tA) (d_fixed_len tA) (dec tA) (d_is_fixed tB) (d_fixed_len tB) (dec tB) (d_is_fixed tC) (d_fixed_len tC) (dec tC) (d_is_fixed tD) (d_fixed_len tD) (dec tD) (d_is_fixed tE) (d_fixed_len tE) (dec tE) (d_is_fixed tF) (d_fixed_len tF) (dec tF) (d_is_fixed tG) (d_fixed_len tG) (dec tG) (d_is_fixed tH) (d_fixed_len tH) (dec tH) bs)
  = dec (TContainer false [tA; tB; tC; tD; tE; tF; tG; tH]) bs.
Proof.
  apply (from_chain_dec [tA; tB; tC; tD; tE; tF; tG; tH] bs tup8).
  intros [|av [|bv [|cv [|dv [|ev [|fv [|gv [|hv [|]]]]]]]]]; try discriminate. reflexivity.
Qed.

Theorem gen_tuple8_ssz_append tA tB tC tD tE tF tG tH av bv cv dv ev fv gv hv buf :
  e_fixed_len tA + e_fixed_len tB + e_fixed_len tC + e_fixed_len tD + e_fixed_len tE + e_fixed_len tF + e_fixed_len tG + e_fixed_len tH + len (enc tA av) + len (enc tB bv) + len (enc tC cv) + len (enc tD dv) + len (enc tE ev) + len (enc tF fv) + len (enc tG gv) <= usize_max ->
  GenD.tuple8_ssz_append (e_is_fixed tA) (e_fixed_len tA) (app_of tA) (e_is_fixed tB) (e_fixed_len tB) (app_of tB) (e_is_fixed tC) (e_fixed_len tC) (app_of tC) (e_is_fixed tD) (e_fixed_len tD) (app_of tD) (e_is_fixed tE) (e_fixed_len tE) (app_of tE) (e_is_fixed tF) (e_fixed_len tF) (app_of tF) (e_is_fixed tG) (e_fixed_len tG) (app_of tG) (e_is_fixed tH) (e_fixed_len tH) (app_of tH) (av, bv, cv, dv, ev, fv, gv, hv) buf
  = Ok (append (TContainer false [tA; tB; tC; tD; tE; tF; tG; tH]) (VCont [av; bv; cv; dv; ev; fv; gv; hv]) buf).
Proof.
  intro H. apply (append_chain_run_eq tA [tB; tC; tD; tE; tF; tG; tH] [av; bv; cv; dv; ev; fv; gv; hv]).
  cbn [fold_left map app removelast combine]. exact H.
Qed.

Print Assumptions gen_tuple8_from_ssz_bytes.
Print Assumptions gen_tuple8_ssz_append.

Theorem gen_tuple8_enc_metadata tA tB tC tD tE tF tG tH :
  e_fixed_len tA + e_fixed_len tB + e_fixed_len tC + e_fixed_len tD + e_fixed_len tE + e_fixed_len tF + e_fixed_len tG + e_fixed_len tH <= usize_max ->
  GenD.tuple8_enc_is_ssz_fixed_len (e_is_fixed tA) (e_is_fixed tB) (e_is_fixed tC) (e_is_fixed tD) (e_is_fixed tE) (e_is_fixed tF) (e_is_fixed tG) (e_is_fixed tH) = Ok (e_is_fixed (TContainer false [tA; tB; tC; tD; tE; tF; tG; tH])) /\
  GenD.tuple8_enc_ssz_fixed_len (e_is_fixed tA) (e_fixed_len tA) (e_is_fixed tB) (e_fixed_len tB) (e_is_fixed tC) (e_fixed_len tC) (e_is_fixed tD) (e_fixed_len tD) (e_is_fixed tE) (e_fixed_len tE) (e_is_fixed tF) (e_fixed_len tF) (e_is_fixed tG) (e_fixed_len tG) (e_is_fixed tH) (e_fixed_len tH)
    = Ok (e_fixed_len (TContainer false [tA; tB; tC; tD; tE; tF; tG; tH])).
Proof.
  intro H. split.
  - exact (f_equal Ok (all_chain_eq e_is_fixed tA [tB; tC; tD; tE; tF; tG; tH])).
  - apply (fixed_len_chain_eq e_is_fixed e_fixed_len tA [tB; tC; tD; tE; tF; tG; tH]). cbn [fold_left map]. exact H.
Qed.

Theorem gen_tuple8_dec_metadata tA tB tC tD tE tF tG tH :
  d_fixed_len tA + d_fixed_len tB + d_fixed_len tC + d_fixed_len tD + d_fixed_len tE + d_fixed_len tF + d_fixed_len tG + d_fixed_len tH <= usize_max ->
  GenD.tuple8_dec_is_ssz_fixed_len (d_is_fixed tA) (d_is_fixed tB) (d_is_fixed tC) (d_is_fixed tD) (d_is_fixed tE) (d_is_fixed tF) (d_is_fixed tG) (d_is_fixed tH) = Ok (d_is_fixed (TContainer false [tA; tB; tC; tD; tE; tF; tG; tH])) /\
  GenD.tuple8_dec_ssz_fixed_len (d_is_fixed tA) (d_fixed_len tA) (d_is_fixed tB) (d_fixed_len tB) (d_is_fixed tC) (d_fixed_len tC) (d_is_fixed tD) (d_fixed_len tD) (d_is_fixed tE) (d_fixed_len tE) (d_is_fixed tF) (d_fixed_len tF) (d_is_fixed tG) (d_fixed_len tG) (d_is_fixed tH) (d_fixed_len tH)
    = Ok (d_fixed_len (TContainer false [tA; tB; tC; tD; tE; tF; tG; tH])).
Proof.
  intro H. split.
  - exact (f_equal Ok (all_chain_eq d_is_fixed tA [tB; tC; tD; tE; tF; tG; tH])).
  - apply (fixed_len_chain_eq d_is_fixed d_fixed_len tA [tB; tC; tD; tE; tF; tG; tH]). cbn [fold_left map]. exact H.
Qed.

Theorem gen_tuple8_ssz_bytes_len tA tB tC tD tE tF tG tH av bv cv dv ev fv gv hv :
  e_fixed_len tA + e_fixed_len tB + e_fixed_len tC + e_fixed_len tD + e_fixed_len tE + e_fixed_len tF + e_fixed_len tG + e_fixed_len tH <= usize_max ->
  field_len tA av + field_len tB bv + field_len tC cv + field_len tD dv + field_len tE ev + field_len tF fv + field_len tG gv + field_len tH hv <= usize_max ->
  GenD.tuple8_ssz_bytes_len (e_is_fixed tA) (e_fixed_len tA) (len_of tA) (e_is_fixed tB) (e_fixed_len tB) (len_of tB) (e_is_fixed tC) (e_fixed_len tC) (len_of tC) (e_is_fixed tD) (e_fixed_len tD) (len_of tD) (e_is_fixed tE) (e_fixed_len tE) (len_of tE) (e_is_fixed tF) (e_fixed_len tF) (len_of tF) (e_is_fixed tG) (e_fixed_len tG) (len_of tG) (e_is_fixed tH) (e_fixed_len tH) (len_of tH) (av, bv, cv, dv, ev, fv, gv, hv)
  = Ok (bytes_len (TContainer false [tA; tB; tC; tD; tE; tF; tG; tH]) (VCont [av; bv; cv; dv; ev; fv; gv; hv])).
Proof.
  intros HF H. apply (len_chain_run_eq tA [tB; tC; tD; tE; tF; tG; tH] av [bv; cv; dv; ev; fv; gv; hv]); cbn [fold_left map combine fst snd]; assumption.
Qed.

Print Assumptions gen_tuple8_enc_metadata.
Print Assumptions gen_tuple8_dec_metadata.
Print Assumptions gen_tuple8_ssz_bytes_len.

Definition tup9 (vs : list val) : outcome (val * val * val * val * val * val * val * val * val) :=
  match vs with [av; bv; cv; dv; ev; fv; gv; hv; iv] => Ok (av, bv, cv, dv, ev, fv, gv, hv, iv) | _ => Err end.

Theorem gen_tuple9_from_ssz_bytes tA tB tC tD tE tF tG tH tI bs :
  omap (fun p : val * val * val * val * val * val * val * val * val => VCont [(fst (fst (fst (fst (fst (fst (fst (fst p)))))))); (snd (fst (fst (fst (fst (fst (fst (fst p)))))))); (snd (fst (fst (fst (fst (fst (fst p))))))); (snd (fst (fst (fst (fst (fst p)))))); (snd (fst (fst (fst (fst p))))); (snd (fst (fst (fst p)))); (snd (fst (fst p))); (snd (fst p)); (snd p)])
    (GenD.tuple9_from_ssz_bytes (d_is_fixed tA) (d_fixed_len tA) (dec tA) (d_is_fixed tB) (d_fixed_len tB) (dec tB) (d_is_fixed tC) (d_fixed_len tC) (dec tC) (d_is_fixed tD) (d_fixed_len tD) (dec tD) (d_is_fixed tE) (d_fixed_len tE) (dec tE) (d_is_fixed tF) (d_fixed_len tF) (dec tF) (d_is_fixed tG) (d_fixed_len tG) (dec tG) (d_is_fixed tH) (d_fixed_len tH) (dec tH) (d_is_fixed tI) (d_fixed_len tI) (dec tI) bs)
  = dec (TContainer false [tA; tB; tC; tD; tE; tF; tG; tH; tI]) bs.
Proof.
  apply (from_chain_dec [tA; tB; tC; tD; tE; tF; tG; tH; tI] bs tup9).
  intros [|av [|bv [|cv [|dv [|ev [|fv [|gv [|hv [|iv [|]]]]]]]]]]; try discriminate. reflexivity.
Qed.

Theorem gen_tuple9_ssz_append tA tB tC tD tE tF tG tH tI av bv cv dv ev fv gv hv iv buf :
  e_fixed_len tA + e_fixed_len tB + e_fixed_len tC + e_fixed_len tD + e_fixed_len tE + e_fixed_len tF + e_fixed_len tG + e_fixed_len tH + e_fixed_len tI + len (enc tA av) + len (enc tB bv) + len (enc tC cv) + len (enc tD dv) + len (enc tE ev) + len (enc tF fv) + len (enc tG gv) + len (enc tH hv) <= usize_max ->
  GenD.tuple9_ssz_append (e_is_fixed tA) (e_fixed_len tA) (app_of tA) (e_is_fixed tB) (e_fixed_len tB) (app_of tB) (e_is_fixed tC) (e_fixed_len tC) (app_of tC) (e_is_fixed tD) (e_fixed_len tD) (app_of tD) (e_is_fixed tE) (e_fixed_len tE) (app_of tE) (e_is_fixed tF) (e_fixed_len tF) (app_of tF) (e_is_fixed tG) (e_fixed_len tG) (app_of tG) (e_is_fixed tH) (e_fixed_len tH) (app_of tH) (e_is_fixed tI) (e_fixed_len tI) (app_of tI) (av, bv, cv, dv, ev, fv, gv, hv, iv) buf
  = Ok (append (TContainer false [tA; tB; tC; tD; tE; tF; tG; tH; tI]) (VCont [av; bv; cv; dv; ev; fv; gv; hv; iv]) buf).
Proof.
  intro H. apply (append_chain_run_eq tA [tB; tC; tD; tE; tF; tG; tH; tI] [av; bv; cv; dv; ev; fv; gv; hv; iv]).
  cbn [fold_left map app removelast combine]. exact H.
Qed.

Print Assumptions gen_tuple9_from_ssz_bytes.
Print Assumptions gen_tuple9_ssz_append.

Theorem gen_tuple9_enc_metadata tA tB tC tD tE tF tG tH tI :
  e_fixed_len tA + e_fixed_len tB + e_fixed_len tC + e_fixed_len tD + e_fixed_len tE + e_fixed_len tF + e_fixed_len tG + e_fixed_len tH + e_fixed_len tI <= usize_max ->
  GenD.tuple9_enc_is_ssz_fixed_len (e_is_fixed tA) (e_is_fixed tB) (e_is_fixed tC) (e_is_fixed tD) (e_is_fixed tE) (e_is_fixed tF) (e_is_fixed tG) (e_is_fixed tH) (e_is_fixed tI) = Ok (e_is_fixed (TContainer false [tA; tB; tC; tD; tE; tF; tG; tH; tI])) /\
  GenD.tuple9_enc_ssz_fixed_len (e_is_fixed tA) (e_fixed_len tA) (e_is_fixed tB) (e_fixed_len tB) (e_is_fixed tC) (e_fixed_len tC) (e_is_fixed tD) (e_fixed_len tD) (e_is_fixed tE) (e_fixed_len tE) (e_is_fixed tF) (e_fixed_len tF) (e_is_fixed tG) (e_fixed_len tG) (e_is_fixed tH) (e_fixed_len tH) (e_is_fixed tI) (e_fixed_len tI)
    = Ok (e_fixed_len (TContainer false [tA; tB; tC; tD; tE; tF; tG; tH; tI])).
Proof.
  intro H. split.
  - exact (f_equal Ok (all_chain_eq e_is_fixed tA [tB; tC; tD; tE; tF; tG; tH; tI])).
  - apply (fixed_len_chain_eq e_is_fixed e_fixed_len tA [tB; tC; tD; tE; tF; tG; tH; tI]). cbn [fold_left map]. exact H.
Qed.

Theorem gen_tuple9_dec_metadata tA tB tC tD tE tF tG tH tI :
  d_fixed_len tA + d_fixed_len tB + d_fixed_len tC + d_fixed_len tD + d_fixed_len tE + d_fixed_len tF + d_fixed_len tG + d_fixed_len tH + d_fixed_len tI <= usize_max ->
  GenD.tuple9_dec_is_ssz_fixed_len (d_is_fixed tA) (d_is_fixed tB) (d_is_fixed tC) (d_is_fixed tD) (d_is_fixed tE) (d_is_fixed tF) (d_is_fixed tG) (d_is_fixed tH) (d_is_fixed tI) = Ok (d_is_fixed (TContainer false [tA; tB; tC; tD; tE; tF; tG; tH; tI])) /\
  GenD.tuple9_dec_ssz_fixed_len (d_is_fixed tA) (d_fixed_len tA) (d_is_fixed tB) (d_fixed_len tB) (d_is_fixed tC) (d_fixed_len tC) (d_is_fixed tD) (d_fixed_len tD) (d_is_fixed tE) (d_fixed_len tE) (d_is_fixed tF) (d_fixed_len tF) (d_is_fixed tG) (d_fixed_len tG) (d_is_fixed tH) (d_fixed_len tH) (d_is_fixed tI) (d_fixed_len tI)
    = Ok (d_fixed_len (TContainer false [tA; tB; tC; tD; tE; tF; tG; tH; tI])).
Proof.
  intro H. split.
  - exact (f_equal Ok (all_chain_eq d_is_fixed tA [tB; tC; tD; tE; tF; tG; tH; tI])).
  - apply (fixed_len_chain_eq d_is_fixed d_fixed_len tA [tB; tC; tD; tE; tF; tG; tH; tI]). cbn [fold_left map]. exact H.
Qed.

Theorem gen_tuple9_ssz_bytes_len tA tB tC tD tE tF tG tH tI av bv cv dv ev fv gv hv iv :
  e_fixed_len tA + e_fixed_len tB + e_fixed_len tC + e_fixed_len tD + e_fixed_len tE + e_fixed_len tF + e_fixed_len tG + e_fixed_len tH + e_fixed_len tI <= usize_max ->
  field_len tA av + field_len tB bv + field_len tC cv + field_len tD dv + field_len tE ev + field_len tF fv + field_len tG gv + field_len tH hv + field_len tI iv <= usize_max ->
  GenD.tuple9_ssz_bytes_len (e_is_fixed tA) (e_fixed_len tA) (len_of tA) (e_is_fixed tB) (e_fixed_len tB) (len_of tB) (e_is_fixed tC) (e_fixed_len tC) (len_of tC) (e_is_fixed tD) (e_fixed_len tD) (len_of tD) (e_is_fixed tE) (e_fixed_len tE) (len_of tE) (e_is_fixed tF) (e_fixed_len tF) (len_of tF) (e_is_fixed tG) (e_fixed_len tG) (len_of tG) (e_is_fixed tH) (e_fixed_len tH) (len_of tH) (e_is_fixed tI) (e_fixed_len tI) (len_of tI) (av, bv, cv, dv, ev, fv, gv, hv, iv)
  = Ok (bytes_len (TContainer false [tA; tB; tC; tD; tE; tF; tG; tH; tI]) (VCont [av; bv; cv; dv; ev; fv; gv; hv; iv])).
Proof.
  intros HF H. apply (len_chain_run_eq tA [tB; tC; tD; tE; tF; tG; tH; tI] av [bv; cv; dv; ev; fv; gv; hv; iv]); cbn [fold_left map combine fst snd]; assumption.
Qed.

Print Assumptions gen_tuple9_enc_metadata.
Print Assumptions gen_tuple9_dec_metadata.
Print Assumptions gen_tuple9_ssz_bytes_len.

Definition tup10 (vs : list val) : outcome (val * val * val * val * val * val * val * val * val * val) :=
  match vs with [av; bv; cv; dv; ev; fv; gv; hv; iv; jv] => Ok (av, bv, cv, dv, ev, fv, gv, hv, iv, jv) | _ => Err end.

Theorem gen_tuple10_from_ssz_bytes tA tB tC tD tE tF tG tH tI tJ bs :
  omap (fun p : val * val * val * val * val * val * val * val * val * val => VCont [(fst (fst (fst (fst (fst (fst (fst (fst (fst p))))))))); (snd (fst (fst (fst (fst (fst (fst (fst (fst p))))))))); (snd (fst (fst (fst (fst (fst (fst (fst p)))))))); (snd (fst (fst (fst (fst (fst (fst p))))))); (snd (fst (fst (fst (fst (fst p)))))); (snd (fst (fst (fst (fst p))))); (snd (fst (fst (fst p)))); (snd (fst (fst p))); (snd (fst p)); (snd p)])
    (GenD.tuple10_from_ssz_bytes (d_is_fixed tA) (d_fixed_len tA) (dec tA) (d_is_fixed tB) (d_fixed_len tB) (dec tB) (d_is_fixed tC) (d_fixed_len tC) (dec tC) (d_is_fixed tD) (d_fixed_len tD) (dec tD) (d_is_fixed tE) (d_fixed_len tE) (dec tE) (d_is_fixed tF) (d_fixed_len tF) (dec tF) (d_is_fixed tG) (d_fixed_len tG) (dec tG) (d_is_fixed tH) (d_fixed_len tH) (dec tH) (d_is_fixed tI) (d_fixed_len tI) (dec tI) (d_is_fixed tJ) (d_fixed_len tJ) (dec tJ) bs)
  = dec (TContainer false [tA; tB; tC; tD; tE; tF; tG; tH; tI; tJ]) bs.
Proof.
  apply (from_chain_dec [tA; tB; tC; tD; tE; tF; tG; tH; tI; tJ] bs tup10).
  intros [|av [|bv [|cv [|dv [|ev [|fv [|gv [|hv [|iv [|jv [|]]]]]]]]]]]; try discriminate. reflexivity.
Qed.

Theorem gen_tuple10_ssz_append tA tB tC tD tE tF tG tH tI tJ av bv cv dv ev fv gv hv iv jv buf :
  e_fixed_len tA + e_fixed_len tB + e_fixed_len tC + e_fixed_len tD + e_fixed_len tE + e_fixed_len tF + e_fixed_len tG + e_fixed_len tH + e_fixed_len tI + e_fixed_len tJ + len (enc tA av) + len (enc tB bv) + len (enc tC cv) + len (enc tD dv) + len (enc tE ev) + len (enc tF fv) + len (enc tG gv) + len (enc tH hv) + len (enc tI iv) <= usize_max ->
  GenD.tuple10_ssz_append (e_is_fixed tA) (e_fixed_len tA) (app_of tA) (e_is_fixed tB) (e_fixed_len tB) (app_of tB) (e_is_fixed tC) (e_fixed_len tC) (app_of tC) (e_is_fixed tD) (e_fixed_len tD) (app_of tD) (e_is_fixed tE) (e_fixed_len tE) (app_of tE) (e_is_fixed tF) (e_fixed_len tF) (app_of tF) (e_is_fixed tG) (e_fixed_len tG) (app_of tG) (e_is_fixed tH) (e_fixed_len tH) (app_of tH) (e_is_fixed tI) (e_fixed_len tI) (app_of tI) (e_is_fixed tJ) (e_fixed_len tJ) (app_of tJ) (av, bv, cv, dv, ev, fv, gv, hv, iv, jv) buf
  = Ok (append (TContainer false [tA; tB; tC; tD; tE; tF; tG; tH; tI; tJ]) (VCont [av; bv; cv; dv; ev; fv; gv; hv; iv; jv]) buf).
Proof.
  intro H. apply (append_chain_run_eq tA [tB; tC; tD; tE; tF; tG; tH; tI; tJ] [av; bv; cv; dv; ev; fv; gv; hv; iv; jv]).
  cbn [fold_left map app removelast combine]. exact H.
Qed.

Print Assumptions gen_tuple10_from_ssz_bytes.
Print Assumptions gen_tuple10_ssz_append.

Theorem gen_tuple10_enc_metadata tA tB tC tD tE tF tG tH tI tJ :
  e_fixed_len tA + e_fixed_len tB + e_fixed_len tC + e_fixed_len tD + e_fixed_len tE + e_fixed_len tF + e_fixed_len tG + e_fixed_len tH + e_fixed_len tI + e_fixed_len tJ <= usize_max ->
  GenD.tuple10_enc_is_ssz_fixed_len (e_is_fixed tA) (e_is_fixed tB) (e_is_fixed tC) (e_is_fixed tD) (e_is_fixed tE) (e_is_fixed tF) (e_is_fixed tG) (e_is_fixed tH) (e_is_fixed tI) (e_is_fixed tJ) = Ok (e_is_fixed (TContainer false [tA; tB; tC; tD; tE; tF; tG; tH; tI; tJ])) /\
  GenD.tuple10_enc_ssz_fixed_len (e_is_fixed tA) (e_fixed_len tA) (e_is_fixed tB) (e_fixed_len tB) (e_is_fixed tC) (e_fixed_len tC) (e_is_fixed tD) (e_fixed_len tD) (e_is_fixed tE) (e_fixed_len tE) (e_is_fixed tF) (e_fixed_len tF) (e_is_fixed tG) (e_fixed_len tG) (e_is_fixed tH) (e_fixed_len tH) (e_is_fixed tI) (e_fixed_len tI) (e_is_fixed tJ) (e_fixed_len tJ)
    = Ok (e_fixed_len (TContainer false [tA; tB; tC; tD; tE; tF; tG; tH; tI; tJ])).
Proof.
  intro H. split.
  - exact (f_equal Ok (all_chain_eq e_is_fixed tA [tB; tC; tD; tE; tF; tG; tH; tI; tJ])).
  - apply (fixed_len_chain_eq e_is_fixed e_fixed_len tA [tB; tC; tD; tE; tF; tG; tH; tI; tJ]). cbn [fold_left map]. exact H.
Qed.

Theorem gen_tuple10_dec_metadata tA tB tC tD tE tF tG tH tI tJ :
  d_fixed_len tA + d_fixed_len tB + d_fixed_len tC + d_fixed_len tD + d_fixed_len tE + d_fixed_len tF + d_fixed_len tG + d_fixed_len tH + d_fixed_len tI + d_fixed_len tJ <= usize_max ->
  GenD.tuple10_dec_is_ssz_fixed_len (d_is_fixed tA) (d_is_fixed tB) (d_is_fixed tC) (d_is_fixed tD) (d_is_fixed tE) (d_is_fixed tF) (d_is_fixed tG) (d_is_fixed tH) (d_is_fixed tI) (d_is_fixed tJ) = Ok (d_is_fixed (TContainer false [tA; tB; tC; tD; tE; tF; tG; tH; tI; tJ])) /\
  GenD.tuple10_dec_ssz_fixed_len (d_is_fixed tA) (d_fixed_len tA) (d_is_fixed tB) (d_fixed_len tB) (d_is_fixed tC) (d_fixed_len tC) (d_is_fixed tD) (d_fixed_len tD) (d_is_fixed tE) (d_fixed_len tE) (d_is_fixed tF) (d_fixed_len tF) (d_is_fixed tG) (d_fixed_len tG) (d_is_fixed tH) (d_fixed_len tH) (d_is_fixed tI) (d_fixed_len tI) (d_is_fixed tJ) (d_fixed_len tJ)
    = Ok (d_fixed_len (TContainer false [tA; tB; tC; tD; tE; tF; tG; tH; tI; tJ])).
Proof.
  intro H. split.
  - exact (f_equal Ok (all_chain_eq d_is_fixed tA [tB; tC; tD; tE; tF; tG; tH; tI; tJ])).
  - apply (fixed_len_chain_eq d_is_fixed d_fixed_len tA [tB; tC; tD; tE; tF; tG; tH; tI; tJ]). cbn [fold_left map]. exact H.
Qed.

Theorem gen_tuple10_ssz_bytes_len tA tB tC tD tE tF tG tH tI tJ av bv cv dv ev fv gv hv iv jv :
  e_fixed_len tA + e_fixed_len tB + e_fixed_len tC + e_fixed_len tD + e_fixed_len tE + e_fixed_len tF + e_fixed_len tG + e_fixed_len tH + e_fixed_len tI + e_fixed_len tJ <= usize_max ->
  field_len tA av + field_len tB bv + field_len tC cv + field_len tD dv + field_len tE ev + field_len tF fv + field_len tG gv + field_len tH hv + field_len tI iv + field_len tJ jv <= usize_max ->
  GenD.tuple10_ssz_bytes_len (e_is_fixed tA) (e_fixed_len tA) (len_of tA) (e_is_fixed tB) (e_fixed_len tB) (len_of tB) (e_is_fixed tC) (e_fixed_len tC) (len_of tC) (e_is_fixed tD) (e_fixed_len tD) (len_of tD) (e_is_fixed tE) (e_fixed_len tE) (len_of tE) (e_is_fixed tF) (e_fixed_len tF) (len_of tF) (e_is_fixed tG) (e_fixed_len tG) (len_of tG) (e_is_fixed tH) (e_fixed_len tH) (len_of tH) (e_is_fixed tI) (e_fixed_len tI) (len_of tI) (e_is_fixed tJ) (e_fixed_len tJ) (len_of tJ) (av, bv, cv, dv, ev, fv, gv, hv, iv, jv)
  = Ok (bytes_len (TContainer false [tA; tB; tC; tD; tE; tF; tG; tH; tI; tJ]) (VCont [av; bv; cv; dv; ev; fv; gv; hv; iv; jv])).
Proof.
  intros HF H. apply (len_chain_run_eq tA [tB; tC; tD; tE; tF; tG; tH; tI; tJ] av [bv; cv; dv; ev; fv; gv; hv; iv; jv]); cbn [fold_left map combine fst snd]; assumption.
Qed.

Print Assumptions gen_tuple10_enc_metadata.
Print Assumptions gen_tuple10_dec_metadata.
Print Assumptions gen_tuple10_ssz_bytes_len.

Definition tup11 (vs : list val) : outcome (val * val * val * val * val * val * val * val * val * val * val) :=
  match vs with [av; bv; cv; dv; ev; fv; gv; hv; iv; jv; kv] => Ok (av, bv, cv, dv, ev, fv, gv, hv, iv, jv, kv) | _ => Err end.

Theorem gen_tuple11_from_ssz_bytes tA tB tC tD tE tF tG tH tI tJ tK bs :
  omap (fun p : val * val * val * val * val * val * val * val * val * val * val => VCont [(fst (fst (fst (fst (fst (fst (fst (fst (fst (fst p)))))))))); (snd (fst (fst (fst (fst (fst (fst (fst (fst (fst p)))))))))); (snd (fst (fst (fst (fst (fst (fst (fst (fst p))))))))); (snd (fst (fst (fst (fst (fst (fst (fst p)))))))); (snd (fst (fst (fst (fst (fst (fst p))))))); (snd (fst (fst (fst (fst (fst p)))))); (snd (fst (fst (fst (fst p))))); (snd (fst (fst (fst p)))); (snd (fst (fst p))); (snd (fst p)); (snd p)])
    (GenD.tuple11_from_ssz_bytes (d_is_fixed tA) (d_fixed_len tA) (dec tA) (d_is_fixed tB) (d_fixed_len tB) (dec tB) (d_is_fixed tC) (d_fixed_len tC) (dec tC) (d_is_fixed tD) (d_fixed_len tD) (dec tD) (d_is_fixed tE) (d_fixed_len tE) (dec tE) (d_is_fixed tF) (d_fixed_len tF) (dec tF) (d_is_fixed tG) (d_fixed_len tG) (dec tG) (d_is_fixed tH) (d_fixed_len tH) (dec tH) (d_is_fixed tI) (d_fixed_len tI) (dec tI) (d_is_fixed tJ) (d_fixed_len tJ) (dec tJ) (d_is_fixed tK) (d_fixed_len tK) (dec tK) bs)
  = dec (TContainer false [tA; tB; tC; tD; tE; tF; tG; tH; tI; tJ; tK]) bs.
Proof.
  apply (from_chain_dec [tA; tB; tC; tD; tE; tF; tG; tH; tI; tJ; tK] bs tup11).
  intros [|av [|bv [|cv [|dv [|ev [|fv [|gv [|hv [|iv [|jv [|kv [|]]]]]]]]]]]]; try discriminate. reflexivity.
Qed.

Theorem gen_tuple11_ssz_append tA tB tC tD tE tF tG tH tI tJ tK av bv cv dv ev fv gv hv iv jv kv buf :
  e_fixed_len tA + e_fixed_len tB + e_fixed_len tC + e_fixed_len tD + e_fixed_len tE + e_fixed_len tF + e_fixed_len tG + e_fixed_len tH + e_fixed_len tI + e_fixed_len tJ + e_fixed_len tK + len (enc tA av) + len (enc tB bv) + len (enc tC cv) + len (enc tD dv) + len (enc tE ev) + len (enc tF fv) + len (enc tG gv) + len (enc tH hv) + len (enc tI iv) + len (enc tJ jv) <= usize_max ->
  GenD.tuple11_ssz_append (e_is_fixed tA) (e_fixed_len tA) (app_of tA) (e_is_fixed tB) (e_fixed_len tB) (app_of tB) (e_is_fixed tC) (e_fixed_len tC) (app_of tC) (e_is_fixed tD) (e_fixed_len tD) (app_of tD) (e_is_fixed tE) (e_fixed_len tE) (app_of tE) (e_is_fixed tF) (e_fixed_len tF) (app_of tF) (e_is_fixed tG) (e_fixed_len tG) (app_of tG) (e_is_fixed tH) (e_fixed_len tH) (app_of tH) (e_is_fixed tI) (e_fixed_len tI) (app_of tI) (e_is_fixed tJ) (e_fixed_len tJ) (app_of tJ) (e_is_fixed tK) (e_fixed_len tK) (app_of tK) (av, bv, cv, dv, ev, fv, gv, hv, iv, jv, kv) buf
  = Ok (append (TContainer false [tA; tB; tC; tD; tE; tF; tG; tH; tI; tJ; tK]) (VCont [av; bv; cv; dv; ev; fv; gv; hv; iv; jv; kv]) buf).
Proof.
  intro H. apply (append_chain_run_eq tA [tB; tC; tD; tE; tF; tG; tH; tI; tJ; tK] [av; bv; cv; dv; ev; fv; gv; hv; iv; jv; kv]).
  cbn [fold_left map app removelast combine]. exact H.
Qed.

Print Assumptions gen_tuple11_from_ssz_bytes.
Print Assumptions gen_tuple11_ssz_append.

Theorem gen_tuple11_enc_metadata tA tB tC tD tE tF tG tH tI tJ tK :
  e_fixed_len tA + e_fixed_len tB + e_fixed_len tC + e_fixed_len tD + e_fixed_len tE + e_fixed_len tF + e_fixed_len tG + e_fixed_len tH + e_fixed_len tI + e_fixed_len tJ + e_fixed_len tK <= usize_max ->
  GenD.tuple11_enc_is_ssz_fixed_len (e_is_fixed tA) (e_is_fixed tB) (e_is_fixed tC) (e_is_fixed tD) (e_is_fixed tE) (e_is_fixed tF) (e_is_fixed tG) (e_is_fixed tH) (e_is_fixed tI) (e_is_fixed tJ) (e_is_fixed tK) = Ok (e_is_fixed (TContainer false [tA; tB; tC; tD; tE; tF; tG; tH; tI; tJ; tK])) /\
  GenD.tuple11_enc_ssz_fixed_len (e_is_fixed tA) (e_fixed_len tA) (e_is_fixed tB) (e_fixed_len tB) (e_is_fixed tC) (e_fixed_len tC) (e_is_fixed tD) (e_fixed_len tD) (e_is_fixed tE) (e_fixed_len tE) (e_is_fixed tF) (e_fixed_len tF) (e_is_fixed tG) (e_fixed_len tG) (e_is_fixed tH) (e_fixed_len tH) (e_is_fixed tI) (e_fixed_len tI) (e_is_fixed tJ) (e_fixed_len tJ) (e_is_fixed tK) (e_fixed_len tK)
    = Ok (e_fixed_len (TContainer false [tA; tB; tC; tD; tE; tF; tG; tH; tI; tJ; tK])).
Proof.
  intro H. split.
  - exact (f_equal Ok (all_chain_eq e_is_fixed tA [tB; tC; tD; tE; tF; tG; tH; tI; tJ; tK])).
  - apply (fixed_len_chain_eq e_is_fixed e_fixed_len tA [tB; tC; tD; tE; tF; tG; tH; tI; tJ; tK]). cbn [fold_left map]. exact H.
Qed.

Theorem gen_tuple11_dec_metadata tA tB tC tD tE tF tG tH tI tJ tK :
  d_fixed_len tA + d_fixed_len tB + d_fixed_len tC + d_fixed_len tD + d_fixed_len tE + d_fixed_len tF + d_fixed_len tG + d_fixed_len tH + d_fixed_len tI + d_fixed_len tJ + d_fixed_len tK <= usize_max ->
  GenD.tuple11_dec_is_ssz_fixed_len (d_is_fixed tA) (d_is_fixed tB) (d_is_fixed tC) (d_is_fixed tD) (d_is_fixed tE) (d_is_fixed tF) (d_is_fixed tG) (d_is_fixed tH) (d_is_fixed tI) (d_is_fixed tJ) (d_is_fixed tK) = Ok (d_is_fixed (TContainer false [tA; tB; tC; tD; tE; tF; tG; tH; tI; tJ; tK])) /\
  GenD.tuple11_dec_ssz_fixed_len (d_is_fixed tA) (d_fixed_len tA) (d_is_fixed tB) (d_fixed_len tB) (d_is_fixed tC) (d_fixed_len tC) (d_is_fixed tD) (d_fixed_len tD) (d_is_fixed tE) (d_fixed_len tE) (d_is_fixed tF) (d_fixed_len tF) (d_is_fixed tG) (d_fixed_len tG) (d_is_fixed tH) (d_fixed_len tH) (d_is_fixed tI) (d_fixed_len tI) (d_is_fixed tJ) (d_fixed_len tJ) (d_is_fixed tK) (d_fixed_len tK)
    = Ok (d_fixed_len (TContainer false [tA; tB; tC; tD; tE; tF; tG; tH; tI; tJ; tK])).
Proof.
  intro H. split.
  - exact (f_equal Ok (all_chain_eq d_is_fixed tA [tB; tC; tD; tE; tF; tG; tH; tI; tJ; tK])).
  - apply (fixed_len_chain_eq d_is_fixed d_fixed_len tA [tB; tC; tD; tE; tF; tG; tH; tI; tJ; tK]). cbn [fold_left map]. exact H.
Qed.

Theorem gen_tuple11_ssz_bytes_len tA tB tC tD tE tF tG tH tI tJ tK av bv cv dv ev fv gv hv iv jv kv :
  e_fixed_len tA + e_fixed_len tB + e_fixed_len tC + e_fixed_len tD + e_fixed_len tE + e_fixed_len tF + e_fixed_len tG + e_fixed_len tH + e_fixed_len tI + e_fixed_len tJ + e_fixed_len tK <= usize_max ->
  field_len tA av + field_len tB bv + field_len tC cv + field_len tD dv + field_len tE ev + field_len tF fv + field_len tG gv + field_len tH hv + field_len tI iv + field_len tJ jv + field_len tK kv <= usize_max ->
  GenD.tuple11_ssz_bytes_len (e_is_fixed tA) (e_fixed_len tA) (len_of tA) (e_is_fixed tB) (e_fixed_len tB) (len_of tB) (e_is_fixed tC) (e_fixed_len tC) (len_of tC) (e_is_fixed tD) (e_fixed_len tD) (len_of tD) (e_is_fixed tE) (e_fixed_len tE) (len_of tE) (e_is_fixed tF) (e_fixed_len tF) (len_of tF) (e_is_fixed tG) (e_fixed_len tG) (len_of tG) (e_is_fixed tH) (e_fixed_len tH) (len_of tH) (e_is_fixed tI) (e_fixed_len tI) (len_of tI) (e_is_fixed tJ) (e_fixed_len tJ) (len_of tJ) (e_is_fixed tK) (e_fixed_len tK) (len_of tK) (av, bv, cv, dv, ev, fv, gv, hv, iv, jv, kv)
  = Ok (bytes_len (TContainer false [tA; tB; tC; tD; tE; tF; tG; tH; tI; tJ; tK]) (VCont [av; bv; cv; dv; ev; fv; gv; hv; iv; jv; kv])).
Proof.
  intros HF H. apply (len_chain_run_eq tA [tB; tC; tD; tE; tF; tG; tH; tI; tJ; tK] av [bv; cv; dv; ev; fv; gv; hv; iv; jv; kv]); cbn [fold_left map combine fst snd]; assumption.
Qed.

Print Assumptions gen_tuple11_enc_metadata.
Print Assumptions gen_tuple11_dec_metadata.
Print Assumptions gen_tuple11_ssz_bytes_len.

Definition tup12 (vs : list val) : outcome (val * val * val * val * val * val * val * val * val * val * val * val) :=
  match vs with [av; bv; cv; dv; ev; fv; gv; hv; iv; jv; kv; lv] => Ok (av, bv, cv, dv, ev, fv, gv, hv, iv, jv, kv, lv) | _ => Err end.

Theorem gen_tuple12_from_ssz_bytes tA tB tC tD tE tF tG tH tI tJ tK tL bs :
  omap (fun p : val * val * val * val * val * val * val * val * val * val * val * val => VCont [(fst (fst (fst (fst (fst (fst (fst (fst (fst (fst (fst p))))))))))); (snd (fst (fst (fst (fst (fst (fst (fst (fst (fst (fst p))))))))))); (snd (fst (fst (fst (fst (fst (fst (fst (fst (fst p)))))))))); (snd (fst (fst (fst (fst (fst (fst (fst (fst p))))))))); (snd (fst (fst (fst (fst (fst (fst (fst p)))))))); (snd (fst (fst (fst (fst (fst (fst p))))))); (snd (fst (fst (fst (fst (fst p)))))); (snd (fst (fst (fst (fst p))))); (snd (fst (fst (fst p)))); (snd (fst (fst p))); (snd (fst p)); (snd p)])
    (GenD.tuple12_from_ssz_bytes (d_is_fixed tA) (d_fixed_len tA) (dec tA) (d_is_fixed tB) (d_fixed_len tB) (dec tB) (d_is_fixed tC) (d_fixed_len tC) (dec tC) (d_is_fixed tD) (d_fixed_len tD) (dec tD) (d_is_fixed tE) (d_fixed_len tE) (dec tE) (d_is_fixed tF) (d_fixed_len tF) (dec tF) (d_is_fixed tG) (d_fixed_len tG) (dec tG) (d_is_fixed tH) (d_fixed_len tH) (dec tH) (d_is_fixed tI) (d_fixed_len tI) (dec tI) (d_is_fixed tJ) (d_fixed_len tJ) (dec tJ) (d_is_fixed tK) (d_fixed_len tK) (dec tK) (d_is_fixed tL) (d_fixed_len tL) (dec tL) bs)
  = dec (TContainer false [tA; tB; tC; tD; tE; tF; tG; tH; tI; tJ; tK; tL]) bs.
Proof.
  apply (from_chain_dec [tA; tB; tC; tD; tE; tF; tG; tH; tI; tJ; tK; tL] bs tup12).
  intros [|av [|bv [|cv [|dv [|ev [|fv [|gv [|hv [|iv [|jv [|kv [|lv [|]]]]]]]]]]]]]; try discriminate. reflexivity.
Qed.

Theorem gen_tuple12_ssz_append tA tB tC tD tE tF tG tH tI tJ tK tL av bv cv dv ev fv gv hv iv jv kv lv buf :
  e_fixed_len tA + e_fixed_len tB + e_fixed_len tC + e_fixed_len tD + e_fixed_len tE + e_fixed_len tF + e_fixed_len tG + e_fixed_len tH + e_fixed_len tI + e_fixed_len tJ + e_fixed_len tK + e_fixed_len tL + len (enc tA av) + len (enc tB bv) + len (enc tC cv) + len (enc tD dv) + len (enc tE ev) + len (enc tF fv) + len (enc tG gv) + len (enc tH hv) + len (enc tI iv) + len (enc tJ jv) + len (enc tK kv) <= usize_max ->
  GenD.tuple12_ssz_append (e_is_fixed tA) (e_fixed_len tA) (app_of tA) (e_is_fixed tB) (e_fixed_len tB) (app_of tB) (e_is_fixed tC) (e_fixed_len tC) (app_of tC) (e_is_fixed tD) (e_fixed_len tD) (app_of tD) (e_is_fixed tE) (e_fixed_len tE) (app_of tE) (e_is_fixed tF) (e_fixed_len tF) (app_of tF) (e_is_fixed tG) (e_fixed_len tG) (app_of tG) (e_is_fixed tH) (e_fixed_len tH) (app_of tH) (e_is_fixed tI) (e_fixed_len tI) (app_of tI) (e_is_fixed tJ) (e_fixed_len tJ) (app_of tJ) (e_is_fixed tK) (e_fixed_len tK) (app_of tK) (e_is_fixed tL) (e_fixed_len tL) (app_of tL) (av, bv, cv, dv, ev, fv, gv, hv, iv, jv, kv, lv) buf
  = Ok (append (TContainer false [tA; tB; tC; tD; tE; tF; tG; tH; tI; tJ; tK; tL]) (VCont [av; bv; cv; dv; ev; fv; gv; hv; iv; jv; kv; lv]) buf).
Proof.
  intro H. apply (append_chain_run_eq tA [tB; tC; tD; tE; tF; tG; tH; tI; tJ; tK; tL] [av; bv; cv; dv; ev; fv; gv; hv; iv; jv; kv; lv]).
  cbn [fold_left map app removelast combine]. exact H.
Qed.

Print Assumptions gen_tuple12_from_ssz_bytes.
Print Assumptions gen_tuple12_ssz_append.

Theorem gen_tuple12_enc_metadata tA tB tC tD tE tF tG tH tI tJ tK tL :
  e_fixed_len tA + e_fixed_len tB + e_fixed_len tC + e_fixed_len tD + e_fixed_len tE + e_fixed_len tF + e_fixed_len tG + e_fixed_len tH + e_fixed_len tI + e_fixed_len tJ + e_fixed_len tK + e_fixed_len tL <= usize_max ->
  GenD.tuple12_enc_is_ssz_fixed_len (e_is_fixed tA) (e_is_fixed tB) (e_is_fixed tC) (e_is_fixed tD) (e_is_fixed tE) (e_is_fixed tF) (e_is_fixed tG) (e_is_fixed tH) (e_is_fixed tI) (e_is_fixed tJ) (e_is_fixed tK) (e_is_fixed tL) = Ok (e_is_fixed (TContainer false [tA; tB; tC; tD; tE; tF; tG; tH; tI; tJ; tK; tL])) /\
  GenD.tuple12_enc_ssz_fixed_len (e_is_fixed tA) (e_fixed_len tA) (e_is_fixed tB) (e_fixed_len tB) (e_is_fixed tC) (e_fixed_len tC) (e_is_fixed tD) (e_fixed_len tD) (e_is_fixed tE) (e_fixed_len tE) (e_is_fixed tF) (e_fixed_len tF) (e_is_fixed tG) (e_fixed_len tG) (e_is_fixed tH) (e_fixed_len tH) (e_is_fixed tI) (e_fixed_len tI) (e_is_fixed tJ) (e_fixed_len tJ) (e_is_fixed tK) (e_fixed_len tK) (e_is_fixed tL) (e_fixed_len tL)
    = Ok (e_fixed_len (TContainer false [tA; tB; tC; tD; tE; tF; tG; tH; tI; tJ; tK; tL])).
Proof.
  intro H. split.
  - exact (f_equal Ok (all_chain_eq e_is_fixed tA [tB; tC; tD; tE; tF; tG; tH; tI; tJ; tK; tL])).
  - apply (fixed_len_chain_eq e_is_fixed e_fixed_len tA [tB; tC; tD; tE; tF; tG; tH; tI; tJ; tK; tL]). cbn [fold_left map]. exact H.
Qed.

Theorem gen_tuple12_dec_metadata tA tB tC tD tE tF tG tH tI tJ tK tL :
  d_fixed_len tA + d_fixed_len tB + d_fixed_len tC + d_fixed_len tD + d_fixed_len tE + d_fixed_len tF + d_fixed_len tG + d_fixed_len tH + d_fixed_len tI + d_fixed_len tJ + d_fixed_len tK + d_fixed_len tL <= usize_max ->
  GenD.tuple12_dec_is_ssz_fixed_len (d_is_fixed tA) (d_is_fixed tB) (d_is_fixed tC) (d_is_fixed tD) (d_is_fixed tE) (d_is_fixed tF) (d_is_fixed tG) (d_is_fixed tH) (d_is_fixed tI) (d_is_fixed tJ) (d_is_fixed tK) (d_is_fixed tL) = Ok (d_is_fixed (TContainer false [tA; tB; tC; tD; tE; tF; tG; tH; tI; tJ; tK; tL])) /\
  GenD.tuple12_dec_ssz_fixed_len (d_is_fixed tA) (d_fixed_len tA) (d_is_fixed tB) (d_fixed_len tB) (d_is_fixed tC) (d_fixed_len tC) (d_is_fixed tD) (d_fixed_len tD) (d_is_fixed tE) (d_fixed_len tE) (d_is_fixed tF) (d_fixed_len tF) (d_is_fixed tG) (d_fixed_len tG) (d_is_fixed tH) (d_fixed_len tH) (d_is_fixed tI) (d_fixed_len tI) (d_is_fixed tJ) (d_fixed_len tJ) (d_is_fixed tK) (d_fixed_len tK) (d_is_fixed tL) (d_fixed_len tL)
    = Ok (d_fixed_len (TContainer false [tA; tB; tC; tD; tE; tF; tG; tH; tI; tJ; tK; tL])).
Proof.
  intro H. split.
  - exact (f_equal Ok (all_chain_eq d_is_fixed tA [tB; tC; tD; tE; tF; tG; tH; tI; tJ; tK; tL])).
  - apply (fixed_len_chain_eq d_is_fixed d_fixed_len tA [tB; tC; tD; tE; tF; tG; tH; tI; tJ; tK; tL]). cbn [fold_left map]. exact H.
Qed.

Theorem gen_tuple12_ssz_bytes_len tA tB tC tD tE tF tG tH tI tJ tK tL av bv cv dv ev fv gv hv iv jv kv lv :
  e_fixed_len tA + e_fixed_len tB + e_fixed_len tC + e_fixed_len tD + e_fixed_len tE + e_fixed_len tF + e_fixed_len tG + e_fixed_len tH + e_fixed_len tI + e_fixed_len tJ + e_fixed_len tK + e_fixed_len tL <= usize_max ->
  field_len tA av + field_len tB bv + field_len tC cv + field_len tD dv + field_len tE ev + field_len tF fv + field_len tG gv + field_len tH hv + field_len tI iv + field_len tJ jv + field_len tK kv + field_len tL lv <= usize_max ->
  GenD.tuple12_ssz_bytes_len (e_is_fixed tA) (e_fixed_len tA) (len_of tA) (e_is_fixed tB) (e_fixed_len tB) (len_of tB) (e_is_fixed tC) (e_fixed_len tC) (len_of tC) (e_is_fixed tD) (e_fixed_len tD) (len_of tD) (e_is_fixed tE) (e_fixed_len tE) (len_of tE) (e_is_fixed tF) (e_fixed_len tF) (len_of tF) (e_is_fixed tG) (e_fixed_len tG) (len_of tG) (e_is_fixed tH) (e_fixed_len tH) (len_of tH) (e_is_fixed tI) (e_fixed_len tI) (len_of tI) (e_is_fixed tJ) (e_fixed_len tJ) (len_of tJ) (e_is_fixed tK) (e_fixed_len tK) (len_of tK) (e_is_fixed tL) (e_fixed_len tL) (len_of tL) (av, bv, cv, dv, ev, fv, gv, hv, iv, jv, kv, lv)
  = Ok (bytes_len (TContainer false [tA; tB; tC; tD; tE; tF; tG; tH; tI; tJ; tK; tL]) (VCont [av; bv; cv; dv; ev; fv; gv; hv; iv; jv; kv; lv])).
Proof.
  intros HF H. apply (len_chain_run_eq tA [tB; tC; tD; tE; tF; tG; tH; tI; tJ; tK; tL] av [bv; cv; dv; ev; fv; gv; hv; iv; jv; kv; lv]); cbn [fold_left map combine fst snd]; assumption.
Qed.

Print Assumptions gen_tuple12_enc_metadata.
Print Assumptions gen_tuple12_dec_metadata.
Print Assumptions gen_tuple12_ssz_bytes_len.
