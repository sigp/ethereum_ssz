(** * GenPropsDerive: properties C01 C02 C07 C15 C17 stated about the functions the derive macros of
    /repo expand to (GeneratedDerive.v): each composes the model-equals-expansion theorems of
    [GenEquivDerive] / [GenEquivDerive2] / [GenEquivDerive3] with the model theorem of the property; the
    subject of every statement is the source-derived term. *)
From SSZ Require Import Base RustSem Offsets Encoder Builder Types Codec CodecUnfold BaseFacts OffsetsFacts
     ListDecFacts Canon OrderFacts RoundTrip LeafIface LeafProof MetaFacts SizeFacts Strict
     Generated GenEquiv GenEquivDec GenEquivEnc GenProps GeneratedDerive GenEquivDerive GenEquivDerive2 GenEquivDerive3.
From Coq Require Import ZArith ZifyN ZifyBool ZifyNat Lia.
Open Scope N_scope.

(** the expanded decoder, given the model's encoding of a value, returns something that stands for that value; it
    is the record that was encoded when [inj] is injective, which a skipped field prevents *)
Lemma src_decodes_encoding {R} (T : ty) (inj : R -> val) (from : bytes -> outcome R) v :
  rt_type T = true -> has_ty T v = true -> len (enc T v) < two32 ->
  omap inj (from (append T v [])) = dec T (append T v []) ->
  exists r, from (append T v []) = Ok r /\ inj r = v.
Proof.
  intros Hrt Hty Hlen Hfrom. pose proof (rt_facts leaf_facts T Hrt v Hty Hlen) as H.
  unfold enc in H. rewrite <- Hfrom in H.
  destruct (from (append T v [])) as [r| |]; cbn [omap] in H; try discriminate.
  exists r. split; [reflexivity | congruence].
Qed.

(** C01: decoding what the expanded encoder produced returns the value; the decoder's equivalence is needed only at
    the encoding itself *)
Lemma src_round_trip_at {R} (T : ty) (inj : R -> val) (app : R -> bytes -> outcome bytes) (from : bytes -> outcome R) r :
  (forall r', inj r' = inj r -> r' = r) ->
  rt_type T = true -> has_ty T (inj r) = true -> len (enc T (inj r)) < two32 ->
  app r [] = Ok (append T (inj r) []) -> omap inj (from (enc T (inj r))) = dec T (enc T (inj r)) ->
  (do bs <- app r []; from bs) = Ok r.
Proof.
  intros Hinj Hrt Hty Hlen Happ Hfrom. rewrite Happ. cbn [bind].
  destruct (src_decodes_encoding T inj from (inj r) Hrt Hty Hlen Hfrom) as (r' & -> & E). f_equal. exact (Hinj r' E).
Qed.

Lemma src_round_trip {R} (T : ty) (inj : R -> val) (app : R -> bytes -> outcome bytes) (from : bytes -> outcome R) r :
  (forall r', inj r' = inj r -> r' = r) ->
  rt_type T = true -> has_ty T (inj r) = true -> len (enc T (inj r)) < two32 ->
  app r [] = Ok (append T (inj r) []) -> (forall bs, omap inj (from bs) = dec T bs) ->
  (do bs <- app r []; from bs) = Ok r.
Proof. intros Hinj Hrt Hty Hlen Happ Hfrom. exact (src_round_trip_at T inj app from r Hinj Hrt Hty Hlen Happ (Hfrom _)). Qed.

(** C02: what the expanded decoder accepts is what the expanded encoder produces for the result *)
Lemma src_canonical {R} (T : ty) (inj : R -> val) (app : R -> bytes -> outcome bytes) (from : bytes -> outcome R) bs r :
  canon_type T = true -> phys bs ->
  (forall bs, omap inj (from bs) = dec T bs) -> from bs = Ok r ->
  (has_ty T (inj r) = true -> len (enc T (inj r)) <= usize_max -> app r [] = Ok (append T (inj r) [])) ->
  app r [] = Ok bs.
Proof.
  intros Hc Hp Hfrom Hr Happ.
  assert (Hd : dec T bs = Ok (inj r)) by (rewrite <- Hfrom, Hr; reflexivity).
  destruct (canon_facts leaf_facts T Hc bs (inj r) Hp Hd) as (He & Hty).
  rewrite (Happ Hty) by (rewrite He; apply Hp). f_equal. exact He.
Qed.

(** C07: the expanded [ssz_bytes_len] predicts the length of what the expanded [ssz_append] writes *)
Lemma src_predicted_size {R} (T : ty) (inj : R -> val) (app : R -> bytes -> outcome bytes) (blen : R -> outcome N) r :
  has_ty T (inj r) = true ->
  app r [] = Ok (append T (inj r) []) -> blen r = Ok (bytes_len T (inj r)) ->
  exists bs n, app r [] = Ok bs /\ blen r = Ok n /\ len bs = n.
Proof.
  intros Hty Ha Hb. exists (append T (inj r) []), (bytes_len T (inj r)). repeat split; try assumption.
  symmetry. exact (proj1 (size_facts leaf_facts T (inj r) Hty)).
Qed.

Lemma map_VUint_inj l l' : map VUint l = map VUint l' -> l = l'.
Proof.
  revert l'. induction l as [|x r IH]; destruct l' as [|y r']; cbn [map]; intro H; try discriminate; [reflexivity|].
  injection H as Hx Hr. subst. f_equal. apply IH. exact Hr.
Qed.
Lemma v_list_inj l l' : v_list l = v_list l' -> l = l'.
Proof. unfold v_list. intro H. injection H as H. apply map_VUint_inj. exact H. Qed.
Lemma v_FixedPair_inj r r' : v_FixedPair r' = v_FixedPair r -> r' = r.
Proof. destruct r, r'. cbv. congruence. Qed.
Lemma v_Mixed_inj r r' : v_Mixed r' = v_Mixed r -> r' = r.
Proof.
  destruct r, r'. unfold v_Mixed. cbn. intro H. injection H as -> Hb -> Hd.
  apply map_VUint_inj in Hb. apply map_VUint_inj in Hd. subst. reflexivity.
Qed.
Lemma v_U2_inj u u' : v_U2 u' = v_U2 u -> u' = u.
Proof.
  destruct u, u'; unfold v_U2; intro H; try discriminate.
  - injection H as ->. reflexivity.
  - injection H as H. apply map_VUint_inj in H. subst. reflexivity.
Qed.
Lemma v_Tag3_inj t t' : v_Tag3 t' = v_Tag3 t -> t' = t.
Proof. destruct t, t'; cbn; intro H; try discriminate; reflexivity. Qed.
Lemma v_Wrap_inj w w' : v_Wrap w' = v_Wrap w -> w' = w.
Proof. destruct w, w'. unfold v_Wrap. cbn. intro H. apply v_list_inj in H. subst. reflexivity. Qed.
Lemma v_Fixed3_inj r r' : v_Fixed3 r' = v_Fixed3 r -> r' = r.
Proof. destruct r, r'. cbv. congruence. Qed.
Lemma VCont3_inj a b c a' b' c' : VCont [a; b; c] = VCont [a'; b'; c'] -> a = a' /\ b = b' /\ c = c'.
Proof. intro H. injection H as -> -> ->. repeat split. Qed.
Lemma v_Outer_inj r r' : v_Outer r' = v_Outer r -> r' = r.
Proof.
  destruct r as [x y z], r' as [x' y' z']. unfold v_Outer. cbn [GenD.Outer_x GenD.Outer_y GenD.Outer_z]. intro H.
  apply VCont3_inj in H. destruct H as (Hx & Hy & Hz). apply v_FixedPair_inj in Hx. apply v_Mixed_inj in Hy. apply v_U2_inj in Hz. subst. reflexivity.
Qed.

Lemma bytes_len_Mixed r : bytes_len T_Mixed (v_Mixed r) = 14 + llen (GenD.Mixed_b r) + 2 * llen (GenD.Mixed_d r).
Proof.
  unfold T_Mixed, v_Mixed. rewrite bytes_len_container. cbn -[N.add N.mul bytes_len llen].
  rewrite !bytes_len_list_uint. unfold BYTES_PER_LENGTH_OFFSET. lia.
Qed.
Lemma bytes_len_U2 u : bytes_len T_U2 (v_U2 u) = match u with GenD.U2_A _ => 2 | GenD.U2_B x => 1 + llen x end.
Proof.
  destruct u as [x|x]; [reflexivity|].
  change (bytes_len T_U2 (v_U2 (GenD.U2_B x))) with (bytes_len (TList (TUint 1)) (v_list x) + 1).
  rewrite bytes_len_list_u8. lia.
Qed.
Lemma bytes_len_Skip r : bytes_len T_Skip (v_Skip r) = 6 + llen (GenD.Skip_c r).
Proof.
  unfold T_Skip, v_Skip. rewrite bytes_len_container. cbn -[N.add N.mul bytes_len llen].
  rewrite bytes_len_list_u8. unfold BYTES_PER_LENGTH_OFFSET. lia.
Qed.
Lemma bytes_len_Wrap w : bytes_len T_Wrap (v_Wrap w) = llen (GenD.Wrap_f0 w).
Proof. exact (bytes_len_list_u8 (GenD.Wrap_f0 w)). Qed.
Lemma bytes_len_Outer r :
  bytes_len T_Outer (v_Outer r) = 11 + bytes_len T_Mixed (v_Mixed (GenD.Outer_y r)) + bytes_len T_U2 (v_U2 (GenD.Outer_z r)).
Proof.
  unfold T_Outer, v_Outer. rewrite bytes_len_container. cbn -[N.add N.mul bytes_len llen].
  unfold BYTES_PER_LENGTH_OFFSET. lia.
Qed.

(** The expanded encoder writes what the model's does whenever that fits in [usize::MAX] bytes.  The equivalence
    theorems ask instead for bounds on the lengths of the variable-size fields; each follows from the bound on
    the encoded length, which for a well-typed value is [bytes_len]: [by_bytes_len] puts the hypotheses into
    that form and keeps the typing hypothesis out of the arithmetic. *)
Definition agrees {R} (T : ty) (inj : R -> val) (app : R -> bytes -> outcome bytes) : Prop :=
  forall r, has_ty T (inj r) = true -> len (enc T (inj r)) <= usize_max -> app r [] = Ok (append T (inj r) []).

Lemma by_bytes_len {T v n} {P : Prop} :
  bytes_len T v = n -> (n <= usize_max -> P) -> has_ty T v = true -> len (enc T v) <= usize_max -> P.
Proof. intros <- H Hty. rewrite <- (bytes_len_enc leaf_facts T v Hty). exact H. Qed.

Lemma Mixed_append_ok : agrees T_Mixed v_Mixed GenD.Mixed_ssz_append.
Proof. intro r. apply (by_bytes_len (bytes_len_Mixed r)). apply derive_Mixed_ssz_append. Qed.

Lemma U2_append_ok : agrees T_U2 v_U2 GenD.U2_ssz_append.
Proof.
  intro u. apply (by_bytes_len (bytes_len_U2 u)). intro H. apply derive_U2_ssz_append. destruct u; [exact I | lia].
Qed.

Lemma Wrap_append_ok : agrees T_Wrap v_Wrap GenD.Wrap_ssz_append.
Proof. intro w. apply (by_bytes_len (bytes_len_Wrap w)). apply derive_Wrap_ssz_append. Qed.

Lemma Skip_append_ok : agrees T_Skip v_Skip GenD.Skip_ssz_append.
Proof. intro r. apply (by_bytes_len (bytes_len_Skip r)). apply derive_Skip_ssz_append. Qed.

Lemma has_ty_Outer r : has_ty T_Outer (v_Outer r) = true ->
  has_ty T_FixedPair (v_FixedPair (GenD.Outer_x r)) = true /\ has_ty T_Mixed (v_Mixed (GenD.Outer_y r)) = true /\
  has_ty T_U2 (v_U2 (GenD.Outer_z r)) = true.
Proof.
  unfold T_Outer, v_Outer. intro H. rewrite has_ty_container, !has_ty_fields_cons in H.
  rewrite !Bool.andb_true_iff in H. tauto.
Qed.

(** what [derive_Outer_ssz_bytes_len] asks for; [derive_Outer_ssz_append] asks for a little less *)
Lemma Outer_bounds r : bytes_len T_Outer (v_Outer r) <= usize_max ->
  14 + llen (GenD.Mixed_b (GenD.Outer_y r)) + 2 * llen (GenD.Mixed_d (GenD.Outer_y r)) <= usize_max /\
  (match GenD.Outer_z r with GenD.U2_B x => llen x < usize_max | _ => True end) /\
  11 + bytes_len T_Mixed (v_Mixed (GenD.Outer_y r)) + bytes_len T_U2 (v_U2 (GenD.Outer_z r)) <= usize_max.
Proof.
  rewrite bytes_len_Outer. intro H. repeat split; [rewrite <- bytes_len_Mixed; lia | | exact H].
  rewrite bytes_len_U2 in H. destruct (GenD.Outer_z r); [exact I | lia].
Qed.

Lemma Outer_append_ok : agrees T_Outer v_Outer GenD.Outer_ssz_append.
Proof.
  intros r Hty. destruct (has_ty_Outer r Hty) as (_ & Hy & _). revert Hty. apply (by_bytes_len eq_refl). intro H.
  destruct (Outer_bounds r H) as (HM & HU & HS). apply derive_Outer_ssz_append.
  - exact HM.
  - destruct (GenD.Outer_z r); [exact I | lia].
  - rewrite llen_len. change (append T_Mixed ?v []) with (enc T_Mixed v). rewrite <- (bytes_len_enc leaf_facts _ _ Hy). lia.
Qed.

(** ** C01 on the expanded code *)
Lemma lt_two32_usize n : n < two32 -> n <= usize_max.
Proof. unfold two32. rewrite usize_max_val. lia. Qed.

(** [src_round_trip_at] with the encoder's equivalence in the form [src_canonical] takes it in *)
Lemma src_round_trip_bounded {R} (T : ty) (inj : R -> val) (app : R -> bytes -> outcome bytes) (from : bytes -> outcome R) :
  (forall r r', inj r' = inj r -> r' = r) -> rt_type T = true -> (forall bs, omap inj (from bs) = dec T bs) ->
  agrees T inj app ->
  forall r, has_ty T (inj r) = true -> len (enc T (inj r)) < two32 -> (do bs <- app r []; from bs) = Ok r.
Proof.
  intros Hinj Hrt Hfrom Happ r Hty Hlen.
  exact (src_round_trip_at T inj app from r (Hinj r) Hrt Hty Hlen (Happ r Hty (lt_two32_usize _ Hlen)) (Hfrom _)).
Qed.

Theorem Src_C01_FixedPair r :
  has_ty T_FixedPair (v_FixedPair r) = true ->
  (do bs <- GenD.FixedPair_ssz_append r []; GenD.FixedPair_from_ssz_bytes bs) = Ok r.
Proof.
  intro Hty. apply (src_round_trip_bounded T_FixedPair _ _ _ v_FixedPair_inj eq_refl derive_FixedPair_from_ssz_bytes
                      (fun r _ _ => derive_FixedPair_ssz_append r []) r Hty).
  rewrite <- (bytes_len_enc leaf_facts _ _ Hty). reflexivity.
Qed.

Theorem Src_C01_Mixed r :
  has_ty T_Mixed (v_Mixed r) = true -> len (enc T_Mixed (v_Mixed r)) < two32 ->
  (do bs <- GenD.Mixed_ssz_append r []; GenD.Mixed_from_ssz_bytes bs) = Ok r.
Proof. exact (src_round_trip_bounded T_Mixed _ _ _ v_Mixed_inj eq_refl derive_Mixed_from_ssz_bytes Mixed_append_ok r). Qed.

Theorem Src_C01_U2 u :
  has_ty T_U2 (v_U2 u) = true -> len (enc T_U2 (v_U2 u)) < two32 ->
  (do bs <- GenD.U2_ssz_append u []; GenD.U2_from_ssz_bytes bs) = Ok u.
Proof. exact (src_round_trip_bounded T_U2 _ _ _ v_U2_inj eq_refl derive_U2_from_ssz_bytes U2_append_ok u). Qed.

Theorem Src_C01_Tag3 t : (do bs <- GenD.Tag3_ssz_append t []; GenD.Tag3_from_ssz_bytes bs) = Ok t.
Proof. destruct t; reflexivity. Qed.

Theorem Src_C01_Wrap w :
  has_ty T_Wrap (v_Wrap w) = true -> len (enc T_Wrap (v_Wrap w)) < two32 ->
  (do bs <- GenD.Wrap_ssz_append w []; GenD.Wrap_from_ssz_bytes bs) = Ok w.
Proof. exact (src_round_trip_bounded T_Wrap _ _ _ v_Wrap_inj eq_refl derive_Wrap_from_ssz_bytes Wrap_append_ok w). Qed.

Theorem Src_C01_Fixed3 r :
  has_ty T_Fixed3 (v_Fixed3 r) = true ->
  (do bs <- GenD.Fixed3_ssz_append r []; GenD.Fixed3_from_ssz_bytes bs) = Ok r.
Proof.
  intro Hty. apply (src_round_trip_bounded T_Fixed3 _ _ _ v_Fixed3_inj eq_refl derive_Fixed3_from_ssz_bytes
                      (fun r _ _ => derive_Fixed3_ssz_append r []) r Hty).
  rewrite <- (bytes_len_enc leaf_facts _ _ Hty). reflexivity.
Qed.

Theorem Src_C01_Outer r :
  has_ty T_Outer (v_Outer r) = true -> len (enc T_Outer (v_Outer r)) < two32 ->
  (do bs <- GenD.Outer_ssz_append r []; GenD.Outer_from_ssz_bytes bs) = Ok r.
Proof. exact (src_round_trip_bounded T_Outer _ _ _ v_Outer_inj eq_refl derive_Outer_from_ssz_bytes Outer_append_ok r). Qed.

(** a skipped field does not survive the round trip: it comes back as the type's default *)
Theorem Src_C01_Skip r :
  has_ty T_Skip (v_Skip r) = true -> len (enc T_Skip (v_Skip r)) < two32 ->
  (do bs <- GenD.Skip_ssz_append r []; GenD.Skip_from_ssz_bytes bs) = Ok (GenD.set_Skip_b r 0).
Proof.
  intros Hty Hlen. rewrite (Skip_append_ok r Hty (lt_two32_usize _ Hlen)). cbn [bind].
  destruct (src_decodes_encoding T_Skip v_Skip GenD.Skip_from_ssz_bytes _ eq_refl Hty Hlen
              (proj1 (derive_Skip_from_ssz_bytes _))) as (r' & E & H).
  rewrite E. f_equal. pose proof (proj2 (derive_Skip_from_ssz_bytes _) r' E) as Hb.
  destruct r as [a b c], r' as [a' b' c']. cbn [GenD.Skip_b] in Hb. subst b'.
  unfold v_Skip in H. cbn [GenD.Skip_a GenD.Skip_c] in H. injection H as Ha Hc. apply map_VUint_inj in Hc. subst. reflexivity.
Qed.

(** ** C02 on the expanded code: accepted inputs are canonical *)
Theorem Src_C02_FixedPair bs r : phys bs -> GenD.FixedPair_from_ssz_bytes bs = Ok r -> GenD.FixedPair_ssz_append r [] = Ok bs.
Proof.
  intros Hp Hr. exact (src_canonical T_FixedPair v_FixedPair _ _ bs r eq_refl Hp derive_FixedPair_from_ssz_bytes Hr
                         (fun _ _ => derive_FixedPair_ssz_append r [])).
Qed.
Theorem Src_C02_Fixed3 bs r : phys bs -> GenD.Fixed3_from_ssz_bytes bs = Ok r -> GenD.Fixed3_ssz_append r [] = Ok bs.
Proof.
  intros Hp Hr. exact (src_canonical T_Fixed3 v_Fixed3 _ _ bs r eq_refl Hp derive_Fixed3_from_ssz_bytes Hr
                         (fun _ _ => derive_Fixed3_ssz_append r [])).
Qed.
Theorem Src_C02_Mixed bs r : phys bs -> GenD.Mixed_from_ssz_bytes bs = Ok r -> GenD.Mixed_ssz_append r [] = Ok bs.
Proof. intros Hp Hr. exact (src_canonical T_Mixed v_Mixed _ _ bs r eq_refl Hp derive_Mixed_from_ssz_bytes Hr (Mixed_append_ok r)). Qed.
Theorem Src_C02_U2 bs u : phys bs -> GenD.U2_from_ssz_bytes bs = Ok u -> GenD.U2_ssz_append u [] = Ok bs.
Proof. intros Hp Hr. exact (src_canonical T_U2 v_U2 _ _ bs u eq_refl Hp derive_U2_from_ssz_bytes Hr (U2_append_ok u)). Qed.
Theorem Src_C02_Tag3 bs t : phys bs -> GenD.Tag3_from_ssz_bytes bs = Ok t -> GenD.Tag3_ssz_append t [] = Ok bs.
Proof.
  intros Hp Hr. exact (src_canonical T_Tag3 v_Tag3 _ _ bs t eq_refl Hp derive_Tag3_from_ssz_bytes Hr
                         (fun _ _ => derive_Tag3_ssz_append t [])).
Qed.
Theorem Src_C02_Wrap bs w : phys bs -> GenD.Wrap_from_ssz_bytes bs = Ok w -> GenD.Wrap_ssz_append w [] = Ok bs.
Proof. intros Hp Hr. exact (src_canonical T_Wrap v_Wrap _ _ bs w eq_refl Hp derive_Wrap_from_ssz_bytes Hr (Wrap_append_ok w)). Qed.
Theorem Src_C02_Skip bs r : phys bs -> GenD.Skip_from_ssz_bytes bs = Ok r -> GenD.Skip_ssz_append r [] = Ok bs.
Proof.
  intros Hp Hr. exact (src_canonical T_Skip v_Skip _ _ bs r eq_refl Hp (fun b => proj1 (derive_Skip_from_ssz_bytes b)) Hr
                         (Skip_append_ok r)).
Qed.
Theorem Src_C02_Outer bs r : phys bs -> GenD.Outer_from_ssz_bytes bs = Ok r -> GenD.Outer_ssz_append r [] = Ok bs.
Proof. intros Hp Hr. exact (src_canonical T_Outer v_Outer _ _ bs r eq_refl Hp derive_Outer_from_ssz_bytes Hr (Outer_append_ok r)). Qed.

(** ** C07 on the expanded code: the expanded size function predicts what the expanded encoder writes *)
Theorem Src_C07_Mixed r :
  has_ty T_Mixed (v_Mixed r) = true -> len (enc T_Mixed (v_Mixed r)) <= usize_max ->
  exists bs n, GenD.Mixed_ssz_append r [] = Ok bs /\ GenD.Mixed_ssz_bytes_len r = Ok n /\ len bs = n.
Proof.
  intros Hty Hlen. apply (src_predicted_size T_Mixed v_Mixed _ _ r Hty (Mixed_append_ok r Hty Hlen)).
  revert Hty Hlen. apply (by_bytes_len (bytes_len_Mixed r)). apply derive_Mixed_ssz_bytes_len.
Qed.
Theorem Src_C07_Outer r :
  has_ty T_Outer (v_Outer r) = true -> len (enc T_Outer (v_Outer r)) <= usize_max ->
  exists bs n, GenD.Outer_ssz_append r [] = Ok bs /\ GenD.Outer_ssz_bytes_len r = Ok n /\ len bs = n.
Proof.
  intros Hty Hlen. apply (src_predicted_size T_Outer v_Outer _ _ r Hty (Outer_append_ok r Hty Hlen)).
  revert Hty Hlen. apply (by_bytes_len eq_refl). intro H. apply derive_Outer_ssz_bytes_len; apply (Outer_bounds r H).
Qed.
Theorem Src_C07_Skip r :
  has_ty T_Skip (v_Skip r) = true -> len (enc T_Skip (v_Skip r)) <= usize_max ->
  exists bs n, GenD.Skip_ssz_append r [] = Ok bs /\ GenD.Skip_ssz_bytes_len r = Ok n /\ len bs = n.
Proof.
  intros Hty Hlen. apply (src_predicted_size T_Skip v_Skip _ _ r Hty (Skip_append_ok r Hty Hlen)).
  revert Hty Hlen. apply (by_bytes_len (bytes_len_Skip r)). apply derive_Skip_ssz_bytes_len.
Qed.

(** ** C15 on the expanded union: the selector is the declaration index, nothing above it is accepted *)
Theorem Src_C15_U2_selectors s body :
  GenD.U2_from_ssz_bytes (s :: body) <> Err -> s = 0 \/ s = 1.
Proof.
  intro H. destruct (s =? 0) eqn:E0; [left; apply N.eqb_eq, E0|]. destruct (s =? 1) eqn:E1; [right; apply N.eqb_eq, E1|].
  destruct H. apply (omap_Err_inv v_U2). rewrite derive_U2_from_ssz_bytes. unfold T_U2. rewrite dec_union_chain, split_union_bytes_spec.
  destruct (s <=? 127); cbn [bind map sel_chain N.of_nat Pos.of_succ_nat Pos.succ]; [rewrite E0, E1|]; reflexivity.
Qed.

(** ** C17 on the expanded [four_byte_option_impl!] modules and on a container that uses them *)
Lemma v_opt_u64_inj o o' : v_opt_u64 o' = v_opt_u64 o -> o' = o.
Proof. destruct o, o'; cbn [v_opt_u64]; intro H; try discriminate; [injection H as ->|]; reflexivity. Qed.
Lemma v_opt_vec_inj o o' : v_opt_vec o' = v_opt_vec o -> o' = o.
Proof.
  destruct o as [l|], o' as [l'|]; cbn; intro H; try discriminate; [|reflexivity].
  injection H as H. apply map_VUint_inj in H. subst. reflexivity.
Qed.

Theorem Src_C17_u64_encoding x :
  GenD.legacy_u64__encode__as_ssz_bytes None = Ok [0; 0; 0; 0] /\
  GenD.legacy_u64__encode__as_ssz_bytes (Some x) = Ok ([1; 0; 0; 0] ++ le_bytes 8 x) /\
  GenD.legacy_u64__encode__ssz_bytes_len None = Ok 4 /\ GenD.legacy_u64__encode__ssz_bytes_len (Some x) = Ok 12.
Proof. repeat split. Qed.

Theorem Src_C17_u64_round_trip o :
  has_ty T_Lu64 (v_opt_u64 o) = true ->
  (do bs <- GenD.legacy_u64__encode__ssz_append o []; GenD.legacy_u64__decode__from_ssz_bytes bs) = Ok o.
Proof.
  intro Hty. apply (src_round_trip_bounded T_Lu64 _ _ _ v_opt_u64_inj eq_refl derive_legacy_u64_from_ssz_bytes
                      (fun o _ _ => derive_legacy_u64_ssz_append o []) o Hty).
  rewrite <- (bytes_len_enc leaf_facts _ _ Hty). destruct o; reflexivity.
Qed.

Theorem Src_C17_u64_strict bs :
  (len bs < 4 -> GenD.legacy_u64__decode__from_ssz_bytes bs = Err) /\
  (forall o, phys bs -> GenD.legacy_u64__decode__from_ssz_bytes bs = Ok o -> GenD.legacy_u64__encode__as_ssz_bytes o = Ok bs).
Proof.
  split.
  - intro H. apply (omap_Err_inv v_opt_u64). rewrite derive_legacy_u64_from_ssz_bytes. exact (legacy_short (TUint 8) bs H).
  - intros o Hp Hr. unfold GenD.legacy_u64__encode__as_ssz_bytes.
    rewrite (src_canonical T_Lu64 v_opt_u64 GenD.legacy_u64__encode__ssz_append _ bs o eq_refl Hp
               derive_legacy_u64_from_ssz_bytes Hr (fun _ _ => derive_legacy_u64_ssz_append o [])).
    reflexivity.
Qed.

Lemma bytes_len_Lvec o : bytes_len T_Lvec (v_opt_vec o) = match o with Some l => llen l + 4 | None => 4 end.
Proof.
  destruct o as [l|]; [|reflexivity].
  change (bytes_len T_Lvec (v_opt_vec (Some l))) with (bytes_len (TList (TUint 1)) (v_list l) + BYTES_PER_LENGTH_OFFSET).
  rewrite bytes_len_list_u8. reflexivity.
Qed.

Lemma Lvec_append_ok : agrees T_Lvec v_opt_vec GenD.legacy_vec__encode__ssz_append.
Proof.
  intro o. apply (by_bytes_len (bytes_len_Lvec o)). intro H. apply derive_legacy_vec_ssz_append. destruct o; [lia | exact I].
Qed.

Theorem Src_C17_vec_round_trip o :
  has_ty T_Lvec (v_opt_vec o) = true -> len (enc T_Lvec (v_opt_vec o)) < two32 ->
  (do bs <- GenD.legacy_vec__encode__ssz_append o []; GenD.legacy_vec__decode__from_ssz_bytes bs) = Ok o.
Proof. exact (src_round_trip_bounded T_Lvec _ _ _ v_opt_vec_inj eq_refl derive_legacy_vec_from_ssz_bytes Lvec_append_ok o). Qed.

Theorem Src_C17_vec_strict bs o :
  phys bs -> GenD.legacy_vec__decode__from_ssz_bytes bs = Ok o -> GenD.legacy_vec__encode__ssz_append o [] = Ok bs.
Proof. intros Hp Hr. exact (src_canonical T_Lvec v_opt_vec _ _ bs o eq_refl Hp derive_legacy_vec_from_ssz_bytes Hr (Lvec_append_ok o)). Qed.

Lemma v_WithLegacy_inj r r' : v_WithLegacy r' = v_WithLegacy r -> r' = r.
Proof.
  destruct r as [a b c], r' as [a' b' c']. unfold v_WithLegacy. cbn [GenD.WithLegacy_a GenD.WithLegacy_b GenD.WithLegacy_c]. intro H.
  apply VCont3_inj in H. destruct H as (Ha & Hb & Hc). injection Ha as ->. apply v_opt_u64_inj in Hb. apply v_opt_vec_inj in Hc. subst. reflexivity.
Qed.

Lemma bytes_len_WithLegacy r : bytes_len T_WithLegacy (v_WithLegacy r) =
  10 + bytes_len T_Lu64 (v_opt_u64 (GenD.WithLegacy_b r)) + bytes_len T_Lvec (v_opt_vec (GenD.WithLegacy_c r)).
Proof.
  unfold T_WithLegacy, v_WithLegacy. rewrite bytes_len_container. cbn -[N.add N.mul bytes_len llen].
  unfold BYTES_PER_LENGTH_OFFSET. lia.
Qed.

Lemma WithLegacy_append_ok : agrees T_WithLegacy v_WithLegacy GenD.WithLegacy_ssz_append.
Proof.
  intro r. apply (by_bytes_len (bytes_len_WithLegacy r)). rewrite bytes_len_Lvec. intro H. apply derive_WithLegacy_ssz_append.
  destruct (GenD.WithLegacy_c r); [lia | exact I].
Qed.

Theorem Src_C17_round_trip_as_field r :
  has_ty T_WithLegacy (v_WithLegacy r) = true -> len (enc T_WithLegacy (v_WithLegacy r)) < two32 ->
  (do bs <- GenD.WithLegacy_ssz_append r []; GenD.WithLegacy_from_ssz_bytes bs) = Ok r.
Proof.
  exact (src_round_trip_bounded T_WithLegacy _ _ _ v_WithLegacy_inj eq_refl derive_WithLegacy_from_ssz_bytes WithLegacy_append_ok r).
Qed.

Theorem Src_C17_canonical_as_field bs r :
  phys bs -> GenD.WithLegacy_from_ssz_bytes bs = Ok r -> GenD.WithLegacy_ssz_append r [] = Ok bs.
Proof.
  intros Hp Hr. exact (src_canonical T_WithLegacy v_WithLegacy _ _ bs r eq_refl Hp derive_WithLegacy_from_ssz_bytes Hr
                         (WithLegacy_append_ok r)).
Qed.

Example ex_WithLegacy :
  let r := {| GenD.WithLegacy_a := 258; GenD.WithLegacy_b := Some 5; GenD.WithLegacy_c := Some [9; 8] |} in
  has_ty T_WithLegacy (v_WithLegacy r) = true /\
  GenD.WithLegacy_ssz_append r [] = Ok [2; 1; 10; 0; 0; 0; 22; 0; 0; 0; 1; 0; 0; 0; 5; 0; 0; 0; 0; 0; 0; 0; 1; 0; 0; 0; 9; 8] /\
  (do bs <- GenD.WithLegacy_ssz_append r []; GenD.WithLegacy_from_ssz_bytes bs) = Ok r /\
  GenD.legacy_u64__decode__from_ssz_bytes [2; 0; 0; 0] = Err /\ GenD.legacy_u64__decode__from_ssz_bytes [0; 0; 0] = Err /\
  GenD.legacy_u64__decode__from_ssz_bytes [0; 0; 0; 0; 0] = Err.
Proof. vm_compute. repeat split. Qed.

(** ** the hypotheses are satisfiable: concrete values, evaluated by the kernel through the expanded code *)
Example ex_Mixed :
  let r := {| GenD.Mixed_a := 513; GenD.Mixed_b := [1; 2; 3]; GenD.Mixed_c := 70000; GenD.Mixed_d := [258; 65535] |} in
  has_ty T_Mixed (v_Mixed r) = true /\ len (enc T_Mixed (v_Mixed r)) <? two32 = true /\
  GenD.Mixed_ssz_append r [] = Ok [1; 2; 14; 0; 0; 0; 112; 17; 1; 0; 17; 0; 0; 0; 1; 2; 3; 2; 1; 255; 255] /\
  (do bs <- GenD.Mixed_ssz_append r []; GenD.Mixed_from_ssz_bytes bs) = Ok r.
Proof. vm_compute. repeat split. Qed.
Example ex_Outer :
  let r := {| GenD.Outer_x := {| GenD.FixedPair_a := 7; GenD.FixedPair_b := 9 |};
              GenD.Outer_y := {| GenD.Mixed_a := 1; GenD.Mixed_b := [5]; GenD.Mixed_c := 2; GenD.Mixed_d := [] |};
              GenD.Outer_z := GenD.U2_B [4; 4] |} in
  has_ty T_Outer (v_Outer r) = true /\
  (do bs <- GenD.Outer_ssz_append r []; GenD.Outer_from_ssz_bytes bs) = Ok r /\
  (do bs <- GenD.Outer_ssz_append r []; do n <- GenD.Outer_ssz_bytes_len r; Ok (len bs =? n)) = Ok true.
Proof. vm_compute. repeat split. Qed.
Example ex_Skip :
  let r := {| GenD.Skip_a := 300; GenD.Skip_b := 77; GenD.Skip_c := [1; 2] |} in
  has_ty T_Skip (v_Skip r) = true /\
  (do bs <- GenD.Skip_ssz_append r []; GenD.Skip_from_ssz_bytes bs) = Ok {| GenD.Skip_a := 300; GenD.Skip_b := 0; GenD.Skip_c := [1; 2] |}.
Proof. vm_compute. repeat split. Qed.
Example ex_U2_rejects_2 : GenD.U2_from_ssz_bytes [2; 0] = Err /\ GenD.U2_from_ssz_bytes [1; 9; 9] = Ok (GenD.U2_B [9; 9]).
Proof. vm_compute. repeat split. Qed.

Print Assumptions Src_C01_FixedPair.
Print Assumptions Src_C01_Mixed.
Print Assumptions Src_C01_U2.
Print Assumptions Src_C01_Tag3.
Print Assumptions Src_C01_Wrap.
Print Assumptions Src_C01_Fixed3.
Print Assumptions Src_C01_Outer.
Print Assumptions Src_C01_Skip.
Print Assumptions Src_C02_FixedPair.
Print Assumptions Src_C02_Fixed3.
Print Assumptions Src_C02_Mixed.
Print Assumptions Src_C02_U2.
Print Assumptions Src_C02_Tag3.
Print Assumptions Src_C02_Wrap.
Print Assumptions Src_C02_Skip.
Print Assumptions Src_C02_Outer.
Print Assumptions Src_C07_Mixed.
Print Assumptions Src_C07_Outer.
Print Assumptions Src_C07_Skip.
Print Assumptions Src_C15_U2_selectors.
Print Assumptions Src_C17_u64_encoding.
Print Assumptions Src_C17_u64_round_trip.
Print Assumptions Src_C17_u64_strict.
Print Assumptions Src_C17_vec_round_trip.
Print Assumptions Src_C17_vec_strict.
Print Assumptions Src_C17_round_trip_as_field.
Print Assumptions Src_C17_canonical_as_field.
