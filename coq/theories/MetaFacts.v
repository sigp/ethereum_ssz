(** * Size metadata: the Encode side and the Decode side agree (C07, static part). *)
From SSZ Require Import Base BaseFacts Offsets Types Codec Spec CodecUnfold.
Open Scope N_scope.

Lemma forallb_ext_Forall {A} (f g : A -> bool) l :
  Forall (fun x => f x = g x) l -> forallb f l = forallb g l.
Proof. induction 1 as [|x l Hx _ IH]; cbn [forallb]; [reflexivity|]. now rewrite Hx, IH. Qed.
Lemma map_ext_Forall {A B} (f g : A -> B) l :
  Forall (fun x => f x = g x) l -> map f l = map g l.
Proof. apply List.map_ext_Forall. Qed.

Lemma is_fixed_agree t : e_is_fixed t = d_is_fixed t.
Proof.
  (* the two functions are separate definitions mirroring separate trait impls; they are
     structurally identical, which the kernel sees by conversion *)
  reflexivity.
Qed.

Lemma fixed_len_agree t : e_fixed_len t = d_fixed_len t.
Proof.
  reflexivity.
Qed.

Lemma variable_fixed_len t : e_is_fixed t = false -> e_fixed_len t = 4.
Proof.
  induction t using ty_ind'; try discriminate; try reflexivity; try assumption.
  rewrite e_is_fixed_container, e_fixed_len_container. now intros ->.
Qed.

Lemma is_variable_spec t : is_variable t = negb (e_is_fixed t).
Proof.
  induction t using ty_ind'; try reflexivity; try assumption.
  rewrite is_variable_container, e_is_fixed_container.
  induction H as [|f fs Hf _ IH]; cbn [existsb forallb]; [reflexivity|].
  rewrite Hf, IH. now destruct (e_is_fixed f), (forallb e_is_fixed fs).
Qed.
