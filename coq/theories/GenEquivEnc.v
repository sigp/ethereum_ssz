(** * GenEquivEnc: the [Encode] impls that [rs2v] derives from the Rust text of
    ssz/src/encode/impls.rs and the rest of [SszEncoder] ([Generated.v]) are the corresponding
    cases of the type-generic model encoder [Codec.append] / [Codec.bytes_len].

    As on the decode side, trait-generic impls are translated in dictionary-passing style; the
    [Encode] members of a parameter type are computations ([T::ssz_append : A -> bytes -> outcome bytes],
    [T::ssz_bytes_len : A -> outcome N]: an item encoder may panic).  Instantiated with the model's own
    [append t] / [bytes_len t] under [Ok] ([app_of], [len_of]) they give the recursive cases of the model.

    The source does checked [usize] arithmetic on lengths and offsets where the model is unbounded;
    the equalities are stated under the hypothesis that those numbers fit a [usize]. *)
From SSZ Require Import Base RustSem Offsets Encoder Types Codec BaseFacts Generated GenEquiv.
From Coq Require Import ZArith ZifyN ZifyBool ZifyNat Lia.
Open Scope N_scope.

Theorem gen_uint_ssz_append n buf :
  Gen.u8_ssz_append n buf = Ok (append (TUint 1) (VUint n) buf) /\
  Gen.u16_ssz_append n buf = Ok (append (TUint 2) (VUint n) buf) /\
  Gen.u32_ssz_append n buf = Ok (append (TUint 4) (VUint n) buf) /\
  Gen.u64_ssz_append n buf = Ok (append (TUint 8) (VUint n) buf) /\
  Gen.u128_ssz_append n buf = Ok (append (TUint 16) (VUint n) buf) /\
  Gen.usize_ssz_append n buf = Ok (append (TUint 8) (VUint n) buf) /\
  Gen.u256_ssz_append n buf = Ok (append (TUint 32) (VUint n) buf) /\
  Gen.alloy_u128_ssz_append n buf = Ok (append (TUint 16) (VUint n) buf) /\
  Gen.nonzero_ssz_append n buf = Ok (append TNonZero (VUint n) buf).
Proof. repeat split; reflexivity. Qed.

Theorem gen_uint_ssz_bytes_len n :
  Gen.u8_ssz_bytes_len n = Ok (bytes_len (TUint 1) (VUint n)) /\
  Gen.u16_ssz_bytes_len n = Ok (bytes_len (TUint 2) (VUint n)) /\
  Gen.u32_ssz_bytes_len n = Ok (bytes_len (TUint 4) (VUint n)) /\
  Gen.u64_ssz_bytes_len n = Ok (bytes_len (TUint 8) (VUint n)) /\
  Gen.u128_ssz_bytes_len n = Ok (bytes_len (TUint 16) (VUint n)) /\
  Gen.usize_ssz_bytes_len n = Ok (bytes_len (TUint 8) (VUint n)) /\
  Gen.u256_ssz_bytes_len n = Ok (bytes_len (TUint 32) (VUint n)) /\
  Gen.alloy_u128_ssz_bytes_len n = Ok (bytes_len (TUint 16) (VUint n)) /\
  Gen.nonzero_ssz_bytes_len n = Ok (bytes_len TNonZero (VUint n)).
Proof. repeat split; reflexivity. Qed.

Theorem gen_uint_enc_metadata :
  Gen.u8_enc_is_ssz_fixed_len = Ok (e_is_fixed (TUint 1)) /\ Gen.u8_enc_ssz_fixed_len = Ok (e_fixed_len (TUint 1)) /\
  Gen.u16_enc_is_ssz_fixed_len = Ok (e_is_fixed (TUint 2)) /\ Gen.u16_enc_ssz_fixed_len = Ok (e_fixed_len (TUint 2)) /\
  Gen.u32_enc_is_ssz_fixed_len = Ok (e_is_fixed (TUint 4)) /\ Gen.u32_enc_ssz_fixed_len = Ok (e_fixed_len (TUint 4)) /\
  Gen.u64_enc_is_ssz_fixed_len = Ok (e_is_fixed (TUint 8)) /\ Gen.u64_enc_ssz_fixed_len = Ok (e_fixed_len (TUint 8)) /\
  Gen.u128_enc_is_ssz_fixed_len = Ok (e_is_fixed (TUint 16)) /\ Gen.u128_enc_ssz_fixed_len = Ok (e_fixed_len (TUint 16)) /\
  Gen.usize_enc_is_ssz_fixed_len = Ok (e_is_fixed (TUint 8)) /\ Gen.usize_enc_ssz_fixed_len = Ok (e_fixed_len (TUint 8)) /\
  Gen.u256_enc_is_ssz_fixed_len = Ok (e_is_fixed (TUint 32)) /\ Gen.u256_enc_ssz_fixed_len = Ok (e_fixed_len (TUint 32)) /\
  Gen.alloy_u128_enc_is_ssz_fixed_len = Ok (e_is_fixed (TUint 16)) /\ Gen.alloy_u128_enc_ssz_fixed_len = Ok (e_fixed_len (TUint 16)) /\
  Gen.nonzero_enc_is_ssz_fixed_len = Ok (e_is_fixed TNonZero) /\ Gen.nonzero_enc_ssz_fixed_len = Ok (e_fixed_len TNonZero) /\
  Gen.bool_enc_is_ssz_fixed_len = Ok (e_is_fixed TBool) /\ Gen.bool_enc_ssz_fixed_len = Ok (e_fixed_len TBool).
Proof. repeat split; reflexivity. Qed.

Theorem gen_bool_ssz_append b buf : Gen.bool_ssz_append b buf = Ok (append TBool (VBool b) buf).
Proof. destruct b; reflexivity. Qed.
Theorem gen_bool_ssz_bytes_len b : Gen.bool_ssz_bytes_len b = Ok (bytes_len TBool (VBool b)).
Proof. reflexivity. Qed.

Theorem gen_bytes_ssz_append bs buf :
  (forall n, Gen.array_ssz_append n bs buf = Ok (append (TBytesN (N.to_nat n)) (VBytes bs) buf)) /\
  (forall n, Gen.fixedbytes_ssz_append n bs buf = Ok (append (TBytesN (N.to_nat n)) (VBytes bs) buf)) /\
  Gen.address_ssz_append bs buf = Ok (append (TBytesN 20) (VBytes bs) buf) /\
  Gen.bloom_ssz_append bs buf = Ok (append (TBytesN 256) (VBytes bs) buf) /\
  Gen.alloy_bytes_ssz_append bs buf = Ok (append TByteList (VBytes bs) buf).
Proof. repeat split; reflexivity. Qed.

Theorem gen_bytes_ssz_bytes_len bs :
  (forall n, Gen.array_ssz_bytes_len (N.of_nat n) bs = Ok (bytes_len (TBytesN n) (VBytes bs))) /\
  (forall n, Gen.fixedbytes_ssz_bytes_len (N.of_nat n) bs = Ok (bytes_len (TBytesN n) (VBytes bs))) /\
  Gen.address_ssz_bytes_len bs = Ok (bytes_len (TBytesN 20) (VBytes bs)) /\
  Gen.bloom_ssz_bytes_len bs = Ok (bytes_len (TBytesN 256) (VBytes bs)) /\
  Gen.alloy_bytes_ssz_bytes_len bs = Ok (bytes_len TByteList (VBytes bs)).
Proof. repeat split; reflexivity. Qed.

(** the dictionary of a parameter type whose encoder is the model's: [T::ssz_append], [T::ssz_bytes_len] *)
Definition app_of (t : ty) : val -> bytes -> outcome bytes := fun x b => Ok (append t x b).
Definition len_of (t : ty) : val -> outcome N := fun x => Ok (bytes_len t x).

Theorem gen_option_ssz_append t x buf :
  Gen.option_ssz_append (app_of t) (Some x) buf = Ok (append (TOption t) (VSome x) buf) /\
  Gen.option_ssz_append (app_of t) None buf = Ok (append (TOption t) VNone buf).
Proof. split; reflexivity. Qed.

Theorem gen_option_ssz_bytes_len t x :
  bytes_len t x < usize_max ->
  Gen.option_ssz_bytes_len (len_of t) (Some x) = Ok (bytes_len (TOption t) (VSome x)) /\
  Gen.option_ssz_bytes_len (len_of t) None = Ok (bytes_len (TOption t) VNone).
Proof.
  intro H. split; [|reflexivity]. unfold Gen.option_ssz_bytes_len, len_of, checked_add. cbn [bind].
  rewrite (proj2 (N.leb_le _ _)) by lia. reflexivity.
Qed.

Theorem gen_wrap_ssz_append t x buf :
  Gen.arc_ssz_append (app_of t) x buf = Ok (append (TWrap t) x buf) /\
  Gen.ref_ssz_append (app_of t) x buf = Ok (append (TWrap t) x buf).
Proof. split; reflexivity. Qed.

Theorem gen_wrap_ssz_bytes_len t x :
  Gen.arc_ssz_bytes_len (len_of t) x = Ok (bytes_len (TWrap t) x) /\
  Gen.ref_ssz_bytes_len (len_of t) x = Ok (bytes_len (TWrap t) x).
Proof. split; reflexivity. Qed.

Theorem gen_encoder_container_eq buf n : omap enc_abs (Gen.encoder_container buf n) = Ok (enc_container buf n).
Proof. reflexivity. Qed.

Lemma Forall2_map_left {A B} (R : B -> A -> Prop) (f : A -> B) l : (forall x, R (f x) x) -> Forall2 R (map f l) l.
Proof. intro H. induction l; cbn [map]; constructor; auto. Qed.

(** a loop over items is a run of steps *)
Lemma fold_m_steps {S X} (F : S -> X -> outcome S) l : forall s,
  fold_m F l s = fold_m (fun s step => step s) (map (fun x s => F s x) l) s.
Proof. induction l as [|x r IH]; intro s; cbn [map fold_m]; [reflexivity|]. destruct (F s x); cbn [bind]; auto. Qed.

Lemma sumN_removelast_le {X} (d : X -> N) xs : sumN (map d (removelast xs)) <= sumN (map d xs).
Proof.
  induction xs as [|x r IH]; [reflexivity|]. destruct r as [|y r]; [cbn [removelast map sumN]; lia|].
  change (removelast (x :: y :: r)) with (x :: removelast (y :: r)). cbn [map sumN] in *. lia.
Qed.

(** [step] is an [append] of the model's encoder whenever the offset it may have to write fits *)
Definition appends_as (f : bool) (a : bytes -> bytes) (step : Gen.SszEncoder -> outcome Gen.SszEncoder) : Prop :=
  forall e, e_offset (enc_abs e) + len (e_var (enc_abs e)) <= usize_max ->
  exists e', step e = Ok e' /\ enc_abs e' = enc_append (enc_abs e) f a.

Lemma encoder_append_ext f (F G : bytes -> outcome bytes) e :
  (forall b, F b = G b) -> Gen.encoder_append e f F = Gen.encoder_append e f G.
Proof.
  intro H. unfold Gen.encoder_append. destruct f; cbn [bind]; [rewrite H; reflexivity|].
  destruct (usize_add _ _); cbn [bind]; try reflexivity. destruct (Gen.encode_length _); cbn [bind]; try reflexivity.
  rewrite H. reflexivity.
Qed.

Lemma encoder_append_item_ext {A B} f (F : A -> bytes -> outcome bytes) (G : B -> bytes -> outcome bytes) e x y :
  (forall b, F x b = G y b) -> Gen.encoder_append_item f F e x = Gen.encoder_append_item f G e y.
Proof. intro H. unfold Gen.encoder_append_item. exact (f_equal (fun m => do st <- m; Ok st) (encoder_append_ext f (fun b => F x b) (fun b => G y b) e H)). Qed.

Lemma encoder_append_as f (app : bytes -> outcome bytes) a :
  (forall b, app b = Ok (a b)) -> appends_as f a (fun e => Gen.encoder_append e f app).
Proof.
  intros H e Hfit. rewrite (encoder_append_ext f app (fun b => Ok (a b)) e H).
  destruct (omap_ok _ _ _ (gen_encoder_append_eq e f a Hfit)) as (e' & E & E'). exists e'. split; [exact E | symmetry; exact E'].
Qed.

(** [encoder.append(&x)] as a step on the encoder; the field's type is inside the closure *)
Definition put {A} (f : bool) (app : A -> bytes -> outcome bytes) (x : A) (e : Gen.SszEncoder) : outcome Gen.SszEncoder :=
  Gen.encoder_append_item f app e x.

Lemma put_as {A} f (app : A -> bytes -> outcome bytes) x a :
  (forall b, app x b = Ok (a b)) -> appends_as f a (put f app x).
Proof. intros H e. unfold put, Gen.encoder_append_item. cbv zeta. rewrite bind_ret. exact (encoder_append_as f (fun b => app x b) a H e). Qed.

Theorem gen_encoder_append_item_eq {A} (f : bool) (app : A -> bytes -> bytes) s x :
  Gen.SszEncoder_offset s + len (Gen.SszEncoder_variable_bytes s) <= usize_max ->
  omap enc_abs (Gen.encoder_append_item f (fun a b => Ok (app a b)) s x) = Ok (enc_append (enc_abs s) f (app x)).
Proof. intro H. destruct (put_as f (fun a b => Ok (app a b)) x (app x) (fun _ => eq_refl) s H) as (s' & E & <-). exact (f_equal (omap enc_abs) E). Qed.

(** every offset that a run of appends writes, from state [st] on, fits a [usize] *)
Fixpoint appends_fit (items : list (bool * (bytes -> bytes))) (st : enc_state) : Prop :=
  match items with
  | [] => True
  | it :: r => e_offset st + len (e_var st) <= usize_max /\ appends_fit r (enc_append st (fst it) (snd it))
  end.

(** a run of statements [let e = step(e)?;], each an append, is the model's fold *)
Lemma append_run {X} (item : X -> bool * (bytes -> bytes)) steps xs :
  Forall2 (fun step x => appends_as (fst (item x)) (snd (item x)) step) steps xs ->
  forall e, appends_fit (map item xs) (enc_abs e) ->
  exists e', fold_m (fun e step => step e) steps e = Ok e' /\
    enc_abs e' = fold_left (fun st it => enc_append st (fst it) (snd it)) (map item xs) (enc_abs e).
Proof.
  induction 1 as [|step x steps xs Hs _ IH]; intros e H; [exists e; split; reflexivity|].
  destruct H as (H0 & Hr). destruct (Hs e H0) as (e1 & E1 & A1).
  cbn [fold_m map fold_left]. rewrite E1. cbn [bind]. rewrite <- A1. apply IH. rewrite A1. exact Hr.
Qed.

(** the offsets written are the fixed part plus the variable part so far: if each item [x] adds [d x] to that,
    it is enough that the sum over all items but the last fits *)
Lemma fits_sum {X} (item : X -> bool * (bytes -> bytes)) (d : X -> N) :
  (forall x st, let st' := enc_append st (fst (item x)) (snd (item x)) in
     e_offset st' + len (e_var st') = e_offset st + len (e_var st) + d x) ->
  forall xs st, e_offset st + len (e_var st) + sumN (map d (removelast xs)) <= usize_max -> appends_fit (map item xs) st.
Proof.
  intros Hd xs. induction xs as [|x r IH]; intros st H; [exact I|]. cbn [map appends_fit].
  destruct r as [|y r]; [cbn [removelast map sumN] in H; split; [lia | exact I]|].
  change (removelast (x :: y :: r)) with (x :: removelast (y :: r)) in H. cbn [map sumN] in H.
  split; [lia|]. apply IH. rewrite Hd. lia.
Qed.

(** every offset the encoder writes fits a [usize] *)
Fixpoint fits_run {A} (app : A -> bytes -> bytes) (off : N) (var : bytes) (items : list A) : Prop :=
  match items with
  | [] => True
  | x :: r => off + len var <= usize_max /\ fits_run app off (app x var) r
  end.

Lemma fits_run_fits {A} (app : A -> bytes -> bytes) items : forall st,
  fits_run app (e_offset st) (e_var st) items -> appends_fit (map (fun x => (false, app x)) items) st.
Proof. induction items as [|x r IH]; intros st H; [exact I|]. split; [apply H | apply IH, H]. Qed.

Lemma fixed_loop {A} (app : A -> bytes -> bytes) items : forall buf,
  fold_m (fun buf item => Ok (app item buf)) items buf = Ok (fold_left (fun b a => a b) (map app items) buf).
Proof. induction items as [|x r IH]; intro buf; [reflexivity|]. apply IH. Qed.

(** the loop of [sequence_ssz_append] over a variable-size element type *)
Lemma var_loop {A} (app : A -> bytes -> bytes) items s :
  fits_run app (e_offset (enc_abs s)) (e_var (enc_abs s)) items ->
  exists s',
    fold_m (fun encoder item => do st <- Gen.encoder_append_item false (fun a b => Ok (app a b)) encoder item; Ok st) items s = Ok s' /\
    enc_abs s' = fold_left (fun st it => enc_append st (fst it) (snd it)) (map (fun a => (false, a)) (map app items)) (enc_abs s).
Proof.
  intro H. rewrite map_map, fold_m_steps.
  apply (append_run (fun x => (false, app x))); [|exact (fits_run_fits app items _ H)].
  apply Forall2_map_left. intros x e He. rewrite bind_ret. exact (put_as false _ x (app x) (fun _ => eq_refl) e He).
Qed.

Theorem gen_sequence_ssz_append_eq {A} (f : bool) (l : N) (app : A -> bytes -> bytes) items buf :
  (if f then l * llen items <= usize_max
   else llen items * 4 <= usize_max /\ fits_run app (llen items * 4) [] items) ->
  Gen.sequence_ssz_append f l (fun a b => Ok (app a b)) items buf = Ok (seq_append f (map app items) buf).
Proof.
  intro H. unfold Gen.sequence_ssz_append. destruct f.
  - rewrite usize_mul_ok by exact H. cbn [bind]. rewrite fixed_loop. reflexivity.
  - destruct H as (H4 & Hf). change Gen.BYTES_PER_LENGTH_OFFSET with 4. rewrite usize_mul_ok by exact H4.
    cbn [bind Gen.encoder_container].
    destruct (var_loop app items {| Gen.SszEncoder_offset := llen items * 4; Gen.SszEncoder_buf := buf; Gen.SszEncoder_variable_bytes := [] |} Hf)
      as (s' & -> & Es).
    transitivity (Ok (enc_finalize (enc_abs s'))); [destruct s'; reflexivity|].
    rewrite Es. unfold seq_append, enc_run. rewrite map_length. reflexivity.
Qed.

Theorem gen_sequence_ssz_bytes_len_eq {A} (f : bool) (l : N) (bl : A -> N) items :
  (if f then l * llen items <= usize_max else sumN (map bl items) + 4 * llen items <= usize_max) ->
  Gen.sequence_ssz_bytes_len f l (fun a => Ok (bl a)) items = Ok (seq_bytes_len f l (map bl items)).
Proof.
  intro H. unfold Gen.sequence_ssz_bytes_len, seq_bytes_len. rewrite map_length. destruct f.
  - exact (usize_mul_ok _ _ H).
  - rewrite mapM_pure. unfold usize_sum. cbn [bind]. rewrite fold_usize_add by lia.
    change Gen.BYTES_PER_LENGTH_OFFSET with 4. cbn [bind]. rewrite usize_mul_ok by lia.
    cbn [bind]. rewrite usize_add_ok by exact H. reflexivity.
Qed.

Theorem gen_vec_ssz_append_eq t vs buf :
  (if e_is_fixed t then e_fixed_len t * llen vs <= usize_max
   else llen vs * 4 <= usize_max /\ fits_run (append t) (llen vs * 4) [] vs) ->
  Gen.vec_ssz_append (e_is_fixed t) (e_fixed_len t) (app_of t) vs buf = Ok (append (TList t) (VList vs) buf).
Proof.
  intro H. unfold Gen.vec_ssz_append, app_of. rewrite gen_sequence_ssz_append_eq by exact H. reflexivity.
Qed.

Theorem gen_vec_ssz_bytes_len_eq t vs :
  (if e_is_fixed t then e_fixed_len t * llen vs <= usize_max
   else sumN (map (bytes_len t) vs) + 4 * llen vs <= usize_max) ->
  Gen.vec_ssz_bytes_len (e_is_fixed t) (e_fixed_len t) (len_of t) vs = Ok (bytes_len (TList t) (VList vs)).
Proof. exact (gen_sequence_ssz_bytes_len_eq _ _ (bytes_len t) vs). Qed.

(** [SmallVec<[T; N]>] and [BTreeSet<T>] encode as the sequence of their elements (a set's in ascending order) *)
Theorem gen_smallvec_ssz_append_eq n t vs buf :
  (if e_is_fixed t then e_fixed_len t * llen vs <= usize_max
   else llen vs * 4 <= usize_max /\ fits_run (append t) (llen vs * 4) [] vs) ->
  Gen.smallvec_ssz_append n (e_is_fixed t) (e_fixed_len t) (app_of t) vs buf = Ok (append (TList t) (VList vs) buf).
Proof.
  intro H. unfold Gen.smallvec_ssz_append, app_of. rewrite gen_sequence_ssz_append_eq by exact H. reflexivity.
Qed.
Theorem gen_smallvec_ssz_bytes_len_eq n t vs :
  (if e_is_fixed t then e_fixed_len t * llen vs <= usize_max
   else sumN (map (bytes_len t) vs) + 4 * llen vs <= usize_max) ->
  Gen.smallvec_ssz_bytes_len n (e_is_fixed t) (e_fixed_len t) (len_of t) vs = Ok (bytes_len (TList t) (VList vs)).
Proof. exact (gen_sequence_ssz_bytes_len_eq _ _ (bytes_len t) vs). Qed.
Theorem gen_btreeset_ssz_append_eq t vs buf :
  (if e_is_fixed t then e_fixed_len t * llen vs <= usize_max
   else llen vs * 4 <= usize_max /\ fits_run (append t) (llen vs * 4) [] vs) ->
  Gen.btreeset_ssz_append (e_is_fixed t) (e_fixed_len t) (app_of t) vs buf = Ok (append (TSet t) (VList vs) buf).
Proof.
  intro H. unfold Gen.btreeset_ssz_append, app_of. rewrite gen_sequence_ssz_append_eq by exact H. reflexivity.
Qed.
Theorem gen_btreeset_ssz_bytes_len_eq t vs :
  (if e_is_fixed t then e_fixed_len t * llen vs <= usize_max
   else sumN (map (bytes_len t) vs) + 4 * llen vs <= usize_max) ->
  Gen.btreeset_ssz_bytes_len (e_is_fixed t) (e_fixed_len t) (len_of t) vs = Ok (bytes_len (TSet t) (VList vs)).
Proof. exact (gen_sequence_ssz_bytes_len_eq _ _ (bytes_len t) vs). Qed.

(** the other entry points: the default [as_ssz_bytes], its three overrides, [ssz_encode] *)
Theorem gen_default_as_ssz_bytes t x : Gen.encode_default_as_ssz_bytes (app_of t) x = Ok (enc t x).
Proof. reflexivity. Qed.
Theorem gen_ssz_encode_eq t x : Gen.ssz_encode (Gen.encode_default_as_ssz_bytes (app_of t)) x = Ok (enc t x).
Proof. reflexivity. Qed.
Theorem gen_as_ssz_bytes_overrides bs :
  (forall n, Gen.fixedbytes_as_ssz_bytes n bs = Gen.encode_default_as_ssz_bytes (Gen.fixedbytes_ssz_append n) bs) /\
  Gen.bloom_as_ssz_bytes bs = Gen.encode_default_as_ssz_bytes Gen.bloom_ssz_append bs /\
  Gen.alloy_bytes_as_ssz_bytes bs = Gen.encode_default_as_ssz_bytes Gen.alloy_bytes_ssz_append bs.
Proof. repeat split. Qed.

Print Assumptions gen_uint_ssz_append.
Print Assumptions gen_option_ssz_append.
Print Assumptions gen_option_ssz_bytes_len.
Print Assumptions gen_sequence_ssz_append_eq.
Print Assumptions gen_sequence_ssz_bytes_len_eq.
Print Assumptions gen_vec_ssz_append_eq.
Print Assumptions gen_vec_ssz_bytes_len_eq.
Print Assumptions gen_smallvec_ssz_append_eq.
Print Assumptions gen_smallvec_ssz_bytes_len_eq.
Print Assumptions gen_btreeset_ssz_append_eq.
Print Assumptions gen_btreeset_ssz_bytes_len_eq.
Print Assumptions gen_default_as_ssz_bytes.
Print Assumptions gen_ssz_encode_eq.
Print Assumptions gen_as_ssz_bytes_overrides.
