(** * GenPropsTupleN: C01 and C02 stated about the tuple impls of arity 3 to 12 as rustc expands them: what the expanded
    encoder writes for a tuple, the expanded decoder reads back as that tuple; what the expanded decoder accepts, the
    expanded encoder writes back byte for byte -- for every choice of component type expressions.  Written by
    tools/gen_tuple_proofs.py --props: each is [chain_round_trip] / [chain_canonical] of GenPropsTuple.v at the arity's components. *)
From SSZ Require Import Base RustSem Offsets Encoder Builder Types Codec CodecUnfold BaseFacts OffsetsFacts AppendFacts MetaFacts
     ListDecFacts NoPanic Canon OrderFacts RoundTrip LeafIface LeafProof SizeFacts Strict
     Generated GenEquiv GenEquivDec GenEquivEnc GenProps GeneratedDerive GenEquivDerive GenEquivDerive2 GenEquivTuple GenEquivTupleN GenPropsDerive GenPropsTuple.
From Coq Require Import ZArith ZifyN ZifyBool ZifyNat Lia.
Open Scope N_scope.

Theorem Src_C01_tuple3 tA tB tC av bv cv :
  rt_type (TContainer false [tA; tB; tC]) = true -> has_ty (TContainer false [tA; tB; tC]) (VCont [av; bv; cv]) = true -> len (enc (TContainer false [tA; tB; tC]) (VCont [av; bv; cv])) < two32 ->
  e_fixed_len tA + e_fixed_len tB + e_fixed_len tC + len (enc tA av) + len (enc tB bv) <= usize_max ->
  (do bs <- GenD.tuple3_ssz_append (e_is_fixed tA) (e_fixed_len tA) (app_of tA) (e_is_fixed tB) (e_fixed_len tB) (app_of tB) (e_is_fixed tC) (e_fixed_len tC) (app_of tC) (av, bv, cv) [];
   GenD.tuple3_from_ssz_bytes (d_is_fixed tA) (d_fixed_len tA) (dec tA) (d_is_fixed tB) (d_fixed_len tB) (dec tB) (d_is_fixed tC) (d_fixed_len tC) (dec tC) bs) = Ok (av, bv, cv).
Proof.
  intros Hrt Hty Hlen Hfit. apply (chain_round_trip tA [tB; tC] [av; bv; cv] tup3 Hrt Hty Hlen).
  cbn [fold_left map app removelast combine]. exact Hfit.
Qed.
Print Assumptions Src_C01_tuple3.

Theorem Src_C02_tuple3 tA tB tC bs p :
  canon_type (TContainer false [tA; tB; tC]) = true -> phys bs -> 2 * len bs <= usize_max ->
  GenD.tuple3_from_ssz_bytes (d_is_fixed tA) (d_fixed_len tA) (dec tA) (d_is_fixed tB) (d_fixed_len tB) (dec tB) (d_is_fixed tC) (d_fixed_len tC) (dec tC) bs = Ok p ->
  GenD.tuple3_ssz_append (e_is_fixed tA) (e_fixed_len tA) (app_of tA) (e_is_fixed tB) (e_fixed_len tB) (app_of tB) (e_is_fixed tC) (e_fixed_len tC) (app_of tC) p [] = Ok bs.
Proof.
  intros Hc Hp HF Hr.
  destruct (chain_canonical [tA; tB; tC] bs tup3 p Hc Hp Hr) as ([|av [|bv [|cv [|]]]] & Hk & Hty & He); try discriminate.
  injection Hk as <-. rewrite <- He in *. exact (append_chain_run_eq tA [tB; tC] [av; bv; cv] [] (chain_fits _ _ _ Hty HF)).
Qed.
Print Assumptions Src_C02_tuple3.

Theorem Src_C01_tuple4 tA tB tC tD av bv cv dv :
  rt_type (TContainer false [tA; tB; tC; tD]) = true -> has_ty (TContainer false [tA; tB; tC; tD]) (VCont [av; bv; cv; dv]) = true -> len (enc (TContainer false [tA; tB; tC; tD]) (VCont [av; bv; cv; dv])) < two32 ->
  e_fixed_len tA + e_fixed_len tB + e_fixed_len tC + e_fixed_len tD + len (enc tA av) + len (enc tB bv) + len (enc tC cv) <= usize_max ->
  (do bs <- GenD.tuple4_ssz_append (e_is_fixed tA) (e_fixed_len tA) (app_of tA) (e_is_fixed tB) (e_fixed_len tB) (app_of tB) (e_is_fixed tC) (e_fixed_len tC) (app_of tC) (e_is_fixed tD) (e_fixed_len tD) (app_of tD) (av, bv, cv, dv) [];
   GenD.tuple4_from_ssz_bytes (d_is_fixed tA) (d_fixed_len tA) (dec tA) (d_is_fixed tB) (d_fixed_len tB) (dec tB) (d_is_fixed tC) (d_fixed_len tC) (dec tC) (d_is_fixed tD) (d_fixed_len tD) (dec tD) bs) = Ok (av, bv, cv, dv).
Proof.
  intros Hrt Hty Hlen Hfit. apply (chain_round_trip tA [tB; tC; tD] [av; bv; cv; dv] tup4 Hrt Hty Hlen).
  cbn [fold_left map app removelast combine]. exact Hfit.
Qed.
Print Assumptions Src_C01_tuple4.

Theorem Src_C02_tuple4 tA tB tC tD bs p :
  canon_type (TContainer false [tA; tB; tC; tD]) = true -> phys bs -> 2 * len bs <= usize_max ->
  GenD.tuple4_from_ssz_bytes (d_is_fixed tA) (d_fixed_len tA) (dec tA) (d_is_fixed tB) (d_fixed_len tB) (dec tB) (d_is_fixed tC) (d_fixed_len tC) (dec tC) (d_is_fixed tD) (d_fixed_len tD) (dec tD) bs = Ok p ->
  GenD.tuple4_ssz_append (e_is_fixed tA) (e_fixed_len tA) (app_of tA) (e_is_fixed tB) (e_fixed_len tB) (app_of tB) (e_is_fixed tC) (e_fixed_len tC) (app_of tC) (e_is_fixed tD) (e_fixed_len tD) (app_of tD) p [] = Ok bs.
Proof.
  intros Hc Hp HF Hr.
  destruct (chain_canonical [tA; tB; tC; tD] bs tup4 p Hc Hp Hr) as ([|av [|bv [|cv [|dv [|]]]]] & Hk & Hty & He); try discriminate.
  injection Hk as <-. rewrite <- He in *. exact (append_chain_run_eq tA [tB; tC; tD] [av; bv; cv; dv] [] (chain_fits _ _ _ Hty HF)).
Qed.
Print Assumptions Src_C02_tuple4.

Theorem Src_C01_tuple5 tA tB tC tD tE av bv cv dv ev :
  rt_type (TContainer false [tA; tB; tC; tD; tE]) = true -> has_ty (TContainer false [tA; tB; tC; tD; tE]) (VCont [av; bv; cv; dv; ev]) = true -> len (enc (TContainer false [tA; tB; tC; tD; tE]) (VCont [av; bv; cv; dv; ev])) < two32 ->
  e_fixed_len tA + e_fixed_len tB + e_fixed_len tC + e_fixed_len tD + e_fixed_len tE + len (enc tA av) + len (enc tB bv) + len (enc tC cv) + len (enc tD dv) <= usize_max ->
  (do bs <- GenD.tuple5_ssz_append (e_is_fixed tA) (e_fixed_len tA) (app_of tA) (e_is_fixed tB) (e_fixed_len tB) (app_of tB) (e_is_fixed tC) (e_fixed_len tC) (app_of tC) (e_is_fixed tD) (e_fixed_len tD) (app_of tD) (e_is_fixed tE) (e_fixed_len tE) (app_of tE) (av, bv, cv, dv, ev) [];
   GenD.tuple5_from_ssz_bytes (d_is_fixed tA) (d_fixed_len tA) (dec tA) (d_is_fixed tB) (d_fixed_len tB) (dec tB) (d_is_fixed tC) (d_fixed_len tC) (dec tC) (d_is_fixed tD) (d_fixed_len tD) (dec tD) (d_is_fixed tE) (d_fixed_len tE) (dec tE) bs) = Ok (av, bv, cv, dv, ev).
Proof.
  intros Hrt Hty Hlen Hfit. apply (chain_round_trip tA [tB; tC; tD; tE] [av; bv; cv; dv; ev] tup5 Hrt Hty Hlen).
  cbn [fold_left map app removelast combine]. exact Hfit.
Qed.
Print Assumptions Src_C01_tuple5.

Theorem Src_C02_tuple5 tA tB tC tD tE bs p :
  canon_type (TContainer false [tA; tB; tC; tD; tE]) = true -> phys bs -> 2 * len bs <= usize_max ->
  GenD.tuple5_from_ssz_bytes (d_is_fixed tA) (d_fixed_len tA) (dec tA) (d_is_fixed tB) (d_fixed_len tB) (dec tB) (d_is_fixed tC) (d_fixed_len tC) (dec tC) (d_is_fixed tD) (d_fixed_len tD) (dec tD) (d_is_fixed tE) (d_fixed_len tE) (dec tE) bs = Ok p ->
  GenD.tuple5_ssz_append (e_is_fixed tA) (e_fixed_len tA) (app_of tA) (e_is_fixed tB) (e_fixed_len tB) (app_of tB) (e_is_fixed tC) (e_fixed_len tC) (app_of tC) (e_is_fixed tD) (e_fixed_len tD) (app_of tD) (e_is_fixed tE) (e_fixed_len tE) (app_of tE) p [] = Ok bs.
Proof.
  intros Hc Hp HF Hr.
  destruct (chain_canonical [tA; tB; tC; tD; tE] bs tup5 p Hc Hp Hr) as ([|av [|bv [|cv [|dv [|ev [|]]]]]] & Hk & Hty & He); try discriminate.
  injection Hk as <-. rewrite <- He in *. exact (append_chain_run_eq tA [tB; tC; tD; tE] [av; bv; cv; dv; ev] [] (chain_fits _ _ _ Hty HF)).
Qed.
Print Assumptions Src_C02_tuple5.

Theorem Src_C01_tuple6 tA tB tC tD tE tF av bv cv dv ev fv :
  rt_type (TContainer false [tA; tB; tC; tD; tE; tF]) = true -> has_ty (TContainer false [tA; tB; tC; tD; tE; tF]) (VCont [av; bv; cv; dv; ev; fv]) = true -> len (enc (TContainer false [tA; tB; tC; tD; tE; tF]) (VCont [av; bv; cv; dv; ev; fv])) < two32 ->
  e_fixed_len tA + e_fixed_len tB + e_fixed_len tC + e_fixed_len tD + e_fixed_len tE + e_fixed_len tF + len (enc tA av) + len (enc tB bv) + len (enc tC cv) + len (enc tD dv) + len (enc tE ev) <= usize_max ->
  (do bs <- GenD.tuple6_ssz_append (e_is_fixed tA) (e_fixed_len tA) (app_of tA) (e_is_fixed tB) (e_fixed_len tB) (app_of tB) (e_is_fixed tC) (e_fixed_len tC) (app_of tC) (e_is_fixed tD) (e_fixed_len tD) (app_of tD) (e_is_fixed tE) (e_fixed_len tE) (app_of tE) (e_is_fixed tF) (e_fixed_len tF) (app_of tF) (av, bv, cv, dv, ev, fv) [];
   GenD.tuple6_from_ssz_bytes (d_is_fixed tA) (d_fixed_len tA) (dec tA) (d_is_fixed tB) (d_fixed_len tB) (dec tB) (d_is_fixed tC) (d_fixed_len tC) (dec tC) (d_is_fixed tD) (d_fixed_len tD) (dec tD) (d_is_fixed tE) (d_fixed_len tE) (dec tE) (d_is_fixed tF) (d_fixed_len tF) (dec tF) bs) = Ok (av, bv, cv, dv, ev, fv).
Proof.
  intros Hrt Hty Hlen Hfit. apply (chain_round_trip tA [tB; tC; tD; tE; tF] [av; bv; cv; dv; ev; fv] tup6 Hrt Hty Hlen).
  cbn [fold_left map app removelast combine]. exact Hfit.
Qed.
Print Assumptions Src_C01_tuple6.

Theorem Src_C02_tuple6 tA tB tC tD tE tF bs p :
  canon_type (TContainer false [tA; tB; tC; tD; tE; tF]) = true -> phys bs -> 2 * len bs <= usize_max ->
  GenD.tuple6_from_ssz_bytes (d_is_fixed tA) (d_fixed_len tA) (dec tA) (d_is_fixed tB) (d_fixed_len tB) (dec tB) (d_is_fixed tC) (d_fixed_len tC) (dec tC) (d_is_fixed tD) (d_fixed_len tD) (dec tD) (d_is_fixed tE) (d_fixed_len tE) (dec tE) (d_is_fixed tF) (d_fixed_len tF) (dec tF) bs = Ok p ->
  GenD.tuple6_ssz_append (e_is_fixed tA) (e_fixed_len tA) (app_of tA) (e_is_fixed tB) (e_fixed_len tB) (app_of tB) (e_is_fixed tC) (e_fixed_len tC) (app_of tC) (e_is_fixed tD) (e_fixed_len tD) (app_of tD) (e_is_fixed tE) (e_fixed_len tE) (app_of tE) (e_is_fixed tF) (e_fixed_len tF) (app_of tF) p [] = Ok bs.
Proof.
  intros Hc Hp HF Hr.
  destruct (chain_canonical [tA; tB; tC; tD; tE; tF] bs tup6 p Hc Hp Hr) as ([|av [|bv [|cv [|dv [|ev [|fv [|]]]]]]] & Hk & Hty & He); try discriminate.
  injection Hk as <-. rewrite <- He in *. exact (append_chain_run_eq tA [tB; tC; tD; tE; tF] [av; bv; cv; dv; ev; fv] [] (chain_fits _ _ _ Hty HF)).
Qed.
Print Assumptions Src_C02_tuple6.

Theorem Src_C01_tuple7 tA tB tC tD tE tF tG av bv cv dv ev fv gv :
  rt_type (TContainer false [tA; tB; tC; tD; tE; tF; tG]) = true -> has_ty (TContainer false [tA; tB; tC; tD; tE; tF; tG]) (VCont [av; bv; cv; dv; ev; fv; gv]) = true -> len (enc (TContainer false [tA; tB; tC; tD; tE; tF; tG]) (VCont [av; bv; cv; dv; ev; fv; gv])) < two32 ->
  e_fixed_len tA + e_fixed_len tB + e_fixed_len tC + e_fixed_len tD + e_fixed_len tE + e_fixed_len tF + e_fixed_len tG + len (enc tA av) + len (enc tB bv) + len (enc tC cv) + len (enc tD dv) + len (enc tE ev) + len (enc tF fv) <= usize_max ->
  (do bs <- GenD.tuple7_ssz_append (e_is_fixed tA) (e_fixed_len tA) (app_of tA) (e_is_fixed tB) (e_fixed_len tB) (app_of tB) (e_is_fixed tC) (e_fixed_len tC) (app_of tC) (e_is_fixed tD) (e_fixed_len tD) (app_of tD) (e_is_fixed tE) (e_fixed_len tE) (app_of tE) (e_is_fixed tF) (e_fixed_len tF) (app_of tF) (e_is_fixed tG) (e_fixed_len tG) (app_of tG) (av, bv, cv, dv, ev, fv, gv) [];
   GenD.tuple7_from_ssz_bytes (d_is_fixed tA) (d_fixed_len tA) (dec tA) (d_is_fixed tB) (d_fixed_len tB) (dec tB) (d_is_fixed tC) (d_fixed_len tC) (dec tC) (d_is_fixed tD) (d_fixed_len tD) (dec tD) (d_is_fixed tE) (d_fixed_len tE) (dec tE) (d_is_fixed tF) (d_fixed_len tF) (dec tF) (d_is_fixed tG) (d_fixed_len tG) (dec tG) bs) = Ok (av, bv, cv, dv, ev, fv, gv).
Proof.
  intros Hrt Hty Hlen Hfit. apply (chain_round_trip tA [tB; tC; tD; tE; tF; tG] [av; bv; cv; dv; ev; fv; gv] tup7 Hrt Hty Hlen).
  cbn [fold_left map app removelast combine]. exact Hfit.
Qed.
Print Assumptions Src_C01_tuple7.

Theorem Src_C02_tuple7 tA tB tC tD tE tF tG bs p :
  canon_type (TContainer false [tA; tB; tC; tD; tE; tF; tG]) = true -> phys bs -> 2 * len bs <= usize_max ->
  GenD.tuple7_from_ssz_bytes (d_is_fixed tA) (d_fixed_len tA) (dec tA) (d_is_fixed tB) (d_fixed_len tB) (dec tB) (d_is_fixed tC) (d_fixed_len tC) (dec tC) (d_is_fixed tD) (d_fixed_len tD) (dec tD) (d_is_fixed tE) (d_fixed_len tE) (dec tE) (d_is_fixed tF) (d_fixed_len tF) (dec tF) (d_is_fixed tG) (d_fixed_len tG) (dec tG) bs = Ok p ->
  GenD.tuple7_ssz_append (e_is_fixed tA) (e_fixed_len tA) (app_of tA) (e_is_fixed tB) (e_fixed_len tB) (app_of tB) (e_is_fixed tC) (e_fixed_len tC) (app_of tC) (e_is_fixed tD) (e_fixed_len tD) (app_of tD) (e_is_fixed tE) (e_fixed_len tE) (app_of tE) (e_is_fixed tF) (e_fixed_len tF) (app_of tF) (e_is_fixed tG) (e_fixed_len tG) (app_of tG) p [] = Ok bs.
Proof.
  intros Hc Hp HF Hr.
  destruct (chain_canonical [tA; tB; tC; tD; tE; tF; tG] bs tup7 p Hc Hp Hr) as ([|av [|bv [|cv [|dv [|ev [|fv [|gv [|]]]]]]]] & Hk & Hty & He); try discriminate.
  injection Hk as <-. rewrite <- He in *. exact (append_chain_run_eq tA [tB; tC; tD; tE; tF; tG] [av; bv; cv; dv; ev; fv; gv] [] (chain_fits _ _ _ Hty HF)).
Qed.
Print Assumptions Src_C02_tuple7.

Theorem Src_C01_tuple8 tA tB tC tD tE tF tG tH av bv cv dv ev fv gv hv :
  rt_type (TContainer false [tA; tB; tC; tD; tE; tF; tG; tH]) = true -> has_ty (TContainer false [tA; tB; tC; tD; tE; tF; tG; tH]) (VCont [av; bv; cv; dv; ev; fv; gv; hv]) = true -> len (enc (TContainer false [tA; tB; tC; tD; tE; tF; tG; tH]) (VCont [av; bv; cv; dv; ev; fv; gv; hv])) < two32 ->
  e_fixed_len tA + e_fixed_len tB + e_fixed_len tC + e_fixed_len tD + e_fixed_len tE + e_fixed_len tF + e_fixed_len tG + e_fixed_len tH + len (enc tA av) + len (enc tB bv) + len (enc tC cv) + len (enc tD dv) + len (enc tE ev) + len (enc tF fv) + len (enc tG gv) <= usize_max ->
  (do bs <- GenD.tuple8_ssz_append (e_is_fixed tA) (e_fixed_len tA) (app_of tA) (e_is_fixed tB) (e_fixed_len tB) (app_of tB) (e_is_fixed tC) (e_fixed_len tC) (app_of tC) (e_is_fixed tD) (e_fixed_len tD) (app_of tD) (e_is_fixed tE) (e_fixed_len tE) (app_of tE) (e_is_fixed tF) (e_fixed_len tF) (app_of tF) (e_is_fixed tG) (e_fixed_len tG) (app_of tG) (e_is_fixed tH) (e_fixed_len tH) (app_of tH) (av, bv, cv, dv, ev, fv, gv, hv) [];
   GenD.tuple8_from_ssz_bytes (d_is_fixed tA) (d_fixed_len tA) (dec tA) (d_is_fixed tB) (d_fixed_len tB) (dec tB) (d_is_fixed tC) (d_fixed_len tC) (dec tC) (d_is_fixed tD) (d_fixed_len tD) (dec tD) (d_is_fixed tE) (d_fixed_len tE) (dec tE) (d_is_fixed tF) (d_fixed_len tF) (dec tF) (d_is_fixed tG) (d_fixed_len tG) (dec tG) (d_is_fixed tH) (d_fixed_len tH) (dec tH) bs) = Ok (av, bv, cv, dv, ev, fv, gv, hv).
Proof.
  intros Hrt Hty Hlen Hfit. apply (chain_round_trip tA [tB; tC; tD; tE; tF; tG; tH] [av; bv; cv; dv; ev; fv; gv; hv] tup8 Hrt Hty Hlen).
  cbn [fold_left map app removelast combine]. exact Hfit.
Qed.
Print Assumptions Src_C01_tuple8.

Theorem Src_C02_tuple8 tA tB tC tD tE tF tG tH bs p :
  canon_type (TContainer false [tA; tB; tC; tD; tE; tF; tG; tH]) = true -> phys bs -> 2 * len bs <= usize_max ->
  GenD.tuple8_from_ssz_bytes (d_is_fixed tA) (d_fixed_len tA) (dec tA) (d_is_fixed tB) (d_fixed_len tB) (dec tB) (d_is_fixed tC) (d_fixed_len tC) (dec tC) (d_is_fixed tD) (d_fixed_len tD) (dec tD) (d_is_fixed tE) (d_fixed_len tE) (dec tE) (d_is_fixed tF) (d_fixed_len tF) (dec tF) (d_is_fixed tG) (d_fixed_len tG) (dec tG) (d_is_fixed tH) (d_fixed_len tH) (dec tH) bs = Ok p ->
  GenD.tuple8_ssz_append (e_is_fixed tA) (e_fixed_len tA) (app_of tA) (e_is_fixed tB) (e_fixed_len tB) (app_of tB) (e_is_fixed tC) (e_fixed_len tC) (app_of tC) (e_is_fixed tD) (e_fixed_len tD) (app_of tD) (e_is_fixed tE) (e_fixed_len tE) (app_of tE) (e_is_fixed tF) (e_fixed_len tF) (app_of tF) (e_is_fixed tG) (e_fixed_len tG) (app_of tG) (e_is_fixed tH) (e_fixed_len tH) (app_of tH) p [] = Ok bs.
Proof.
  intros Hc Hp HF Hr.
  destruct (chain_canonical [tA; tB; tC; tD; tE; tF; tG; tH] bs tup8 p Hc Hp Hr) as ([|av [|bv [|cv [|dv [|ev [|fv [|gv [|hv [|]]]]]]]]] & Hk & Hty & He); try discriminate.
  injection Hk as <-. rewrite <- He in *. exact (append_chain_run_eq tA [tB; tC; tD; tE; tF; tG; tH] [av; bv; cv; dv; ev; fv; gv; hv] [] (chain_fits _ _ _ Hty HF)).
Qed.
Print Assumptions Src_C02_tuple8.

Theorem Src_C01_tuple9 tA tB tC tD tE tF tG tH tI av bv cv dv ev fv gv hv iv :
  rt_type (TContainer false [tA; tB; tC; tD; tE; tF; tG; tH; tI]) = true -> has_ty (TContainer false [tA; tB; tC; tD; tE; tF; tG; tH; tI]) (VCont [av; bv; cv; dv; ev; fv; gv; hv; iv]) = true -> len (enc (TContainer false [tA; tB; tC; tD; tE; tF; tG; tH; tI]) (VCont [av; bv; cv; dv; ev; fv; gv; hv; iv])) < two32 ->
  e_fixed_len tA + e_fixed_len tB + e_fixed_len tC + e_fixed_len tD + e_fixed_len tE + e_fixed_len tF + e_fixed_len tG + e_fixed_len tH + e_fixed_len tI + len (enc tA av) + len (enc tB bv) + len (enc tC cv) + len (enc tD dv) + len (enc tE ev) + len (enc tF fv) + len (enc tG gv) + len (enc tH hv) <= usize_max ->
  (do bs <- GenD.tuple9_ssz_append (e_is_fixed tA) (e_fixed_len tA) (app_of tA) (e_is_fixed tB) (e_fixed_len tB) (app_of tB) (e_is_fixed tC) (e_fixed_len tC) (app_of tC) (e_is_fixed tD) (e_fixed_len tD) (app_of tD) (e_is_fixed tE) (e_fixed_len tE) (app_of tE) (e_is_fixed tF) (e_fixed_len tF) (app_of tF) (e_is_fixed tG) (e_fixed_len tG) (app_of tG) (e_is_fixed tH) (e_fixed_len tH) (app_of tH) (e_is_fixed tI) (e_fixed_len tI) (app_of tI) (av, bv, cv, dv, ev, fv, gv, hv, iv) [];
   GenD.tuple9_from_ssz_bytes (d_is_fixed tA) (d_fixed_len tA) (dec tA) (d_is_fixed tB) (d_fixed_len tB) (dec tB) (d_is_fixed tC) (d_fixed_len tC) (dec tC) (d_is_fixed tD) (d_fixed_len tD) (dec tD) (d_is_fixed tE) (d_fixed_len tE) (dec tE) (d_is_fixed tF) (d_fixed_len tF) (dec tF) (d_is_fixed tG) (d_fixed_len tG) (dec tG) (d_is_fixed tH) (d_fixed_len tH) (dec tH) (d_is_fixed tI) (d_fixed_len tI) (dec tI) bs) = Ok (av, bv, cv, dv, ev, fv, gv, hv, iv).
Proof.
  intros Hrt Hty Hlen Hfit. apply (chain_round_trip tA [tB; tC; tD; tE; tF; tG; tH; tI] [av; bv; cv; dv; ev; fv; gv; hv; iv] tup9 Hrt Hty Hlen).
  cbn [fold_left map app removelast combine]. exact Hfit.
Qed.
Print Assumptions Src_C01_tuple9.

Theorem Src_C02_tuple9 tA tB tC tD tE tF tG tH tI bs p :
  canon_type (TContainer false [tA; tB; tC; tD; tE; tF; tG; tH; tI]) = true -> phys bs -> 2 * len bs <= usize_max ->
  GenD.tuple9_from_ssz_bytes (d_is_fixed tA) (d_fixed_len tA) (dec tA) (d_is_fixed tB) (d_fixed_len tB) (dec tB) (d_is_fixed tC) (d_fixed_len tC) (dec tC) (d_is_fixed tD) (d_fixed_len tD) (dec tD) (d_is_fixed tE) (d_fixed_len tE) (dec tE) (d_is_fixed tF) (d_fixed_len tF) (dec tF) (d_is_fixed tG) (d_fixed_len tG) (dec tG) (d_is_fixed tH) (d_fixed_len tH) (dec tH) (d_is_fixed tI) (d_fixed_len tI) (dec tI) bs = Ok p ->
  GenD.tuple9_ssz_append (e_is_fixed tA) (e_fixed_len tA) (app_of tA) (e_is_fixed tB) (e_fixed_len tB) (app_of tB) (e_is_fixed tC) (e_fixed_len tC) (app_of tC) (e_is_fixed tD) (e_fixed_len tD) (app_of tD) (e_is_fixed tE) (e_fixed_len tE) (app_of tE) (e_is_fixed tF) (e_fixed_len tF) (app_of tF) (e_is_fixed tG) (e_fixed_len tG) (app_of tG) (e_is_fixed tH) (e_fixed_len tH) (app_of tH) (e_is_fixed tI) (e_fixed_len tI) (app_of tI) p [] = Ok bs.
Proof.
  intros Hc Hp HF Hr.
  destruct (chain_canonical [tA; tB; tC; tD; tE; tF; tG; tH; tI] bs tup9 p Hc Hp Hr) as ([|av [|bv [|cv [|dv [|ev [|fv [|gv [|hv [|iv [|]]]]]]]]]] & Hk & Hty & He); try discriminate.
  injection Hk as <-. rewrite <- He in *. exact (append_chain_run_eq tA [tB; tC; tD; tE; tF; tG; tH; tI] [av; bv; cv; dv; ev; fv; gv; hv; iv] [] (chain_fits _ _ _ Hty HF)).
Qed.
Print Assumptions Src_C02_tuple9.

Theorem Src_C01_tuple10 tA tB tC tD tE tF tG tH tI tJ av bv cv dv ev fv gv hv iv jv :
  rt_type (TContainer false [tA; tB; tC; tD; tE; tF; tG; tH; tI; tJ]) = true -> has_ty (TContainer false [tA; tB; tC; tD; tE; tF; tG; tH; tI; tJ]) (VCont [av; bv; cv; dv; ev; fv; gv; hv; iv; jv]) = true -> len (enc (TContainer false [tA; tB; tC; tD; tE; tF; tG; tH; tI; tJ]) (VCont [av; bv; cv; dv; ev; fv; gv; hv; iv; jv])) < two32 ->
  e_fixed_len tA + e_fixed_len tB + e_fixed_len tC + e_fixed_len tD + e_fixed_len tE + e_fixed_len tF + e_fixed_len tG + e_fixed_len tH + e_fixed_len tI + e_fixed_len tJ + len (enc tA av) + len (enc tB bv) + len (enc tC cv) + len (enc tD dv) + len (enc tE ev) + len (enc tF fv) + len (enc tG gv) + len (enc tH hv) + len (enc tI iv) <= usize_max ->
  (do bs <- GenD.tuple10_ssz_append (e_is_fixed tA) (e_fixed_len tA) (app_of tA) (e_is_fixed tB) (e_fixed_len tB) (app_of tB) (e_is_fixed tC) (e_fixed_len tC) (app_of tC) (e_is_fixed tD) (e_fixed_len tD) (app_of tD) (e_is_fixed tE) (e_fixed_len tE) (app_of tE) (e_is_fixed tF) (e_fixed_len tF) (app_of tF) (e_is_fixed tG) (e_fixed_len tG) (app_of tG) (e_is_fixed tH) (e_fixed_len tH) (app_of tH) (e_is_fixed tI) (e_fixed_len tI) (app_of tI) (e_is_fixed tJ) (e_fixed_len tJ) (app_of tJ) (av, bv, cv, dv, ev, fv, gv, hv, iv, jv) [];
   GenD.tuple10_from_ssz_bytes (d_is_fixed tA) (d_fixed_len tA) (dec tA) (d_is_fixed tB) (d_fixed_len tB) (dec tB) (d_is_fixed tC) (d_fixed_len tC) (dec tC) (d_is_fixed tD) (d_fixed_len tD) (dec tD) (d_is_fixed tE) (d_fixed_len tE) (dec tE) (d_is_fixed tF) (d_fixed_len tF) (dec tF) (d_is_fixed tG) (d_fixed_len tG) (dec tG) (d_is_fixed tH) (d_fixed_len tH) (dec tH) (d_is_fixed tI) (d_fixed_len tI) (dec tI) (d_is_fixed tJ) (d_fixed_len tJ) (dec tJ) bs) = Ok (av, bv, cv, dv, ev, fv, gv, hv, iv, jv).
Proof.
  intros Hrt Hty Hlen Hfit. apply (chain_round_trip tA [tB; tC; tD; tE; tF; tG; tH; tI; tJ] [av; bv; cv; dv; ev; fv; gv; hv; iv; jv] tup10 Hrt Hty Hlen).
  cbn [fold_left map app removelast combine]. exact Hfit.
Qed.
Print Assumptions Src_C01_tuple10.

Theorem Src_C02_tuple10 tA tB tC tD tE tF tG tH tI tJ bs p :
  canon_type (TContainer false [tA; tB; tC; tD; tE; tF; tG; tH; tI; tJ]) = true -> phys bs -> 2 * len bs <= usize_max ->
  GenD.tuple10_from_ssz_bytes (d_is_fixed tA) (d_fixed_len tA) (dec tA) (d_is_fixed tB) (d_fixed_len tB) (dec tB) (d_is_fixed tC) (d_fixed_len tC) (dec tC) (d_is_fixed tD) (d_fixed_len tD) (dec tD) (d_is_fixed tE) (d_fixed_len tE) (dec tE) (d_is_fixed tF) (d_fixed_len tF) (dec tF) (d_is_fixed tG) (d_fixed_len tG) (dec tG) (d_is_fixed tH) (d_fixed_len tH) (dec tH) (d_is_fixed tI) (d_fixed_len tI) (dec tI) (d_is_fixed tJ) (d_fixed_len tJ) (dec tJ) bs = Ok p ->
  GenD.tuple10_ssz_append (e_is_fixed tA) (e_fixed_len tA) (app_of tA) (e_is_fixed tB) (e_fixed_len tB) (app_of tB) (e_is_fixed tC) (e_fixed_len tC) (app_of tC) (e_is_fixed tD) (e_fixed_len tD) (app_of tD) (e_is_fixed tE) (e_fixed_len tE) (app_of tE) (e_is_fixed tF) (e_fixed_len tF) (app_of tF) (e_is_fixed tG) (e_fixed_len tG) (app_of tG) (e_is_fixed tH) (e_fixed_len tH) (app_of tH) (e_is_fixed tI) (e_fixed_len tI) (app_of tI) (e_is_fixed tJ) (e_fixed_len tJ) (app_of tJ) p [] = Ok bs.
Proof.
  intros Hc Hp HF Hr.
  destruct (chain_canonical [tA; tB; tC; tD; tE; tF; tG; tH; tI; tJ] bs tup10 p Hc Hp Hr) as ([|av [|bv [|cv [|dv [|ev [|fv [|gv [|hv [|iv [|jv [|]]]]]]]]]]] & Hk & Hty & He); try discriminate.
  injection Hk as <-. rewrite <- He in *. exact (append_chain_run_eq tA [tB; tC; tD; tE; tF; tG; tH; tI; tJ] [av; bv; cv; dv; ev; fv; gv; hv; iv; jv] [] (chain_fits _ _ _ Hty HF)).
Qed.
Print Assumptions Src_C02_tuple10.

Theorem Src_C01_tuple11 tA tB tC tD tE tF tG tH tI tJ tK av bv cv dv ev fv gv hv iv jv kv :
  rt_type (TContainer false [tA; tB; tC; tD; tE; tF; tG; tH; tI; tJ; tK]) = true -> has_ty (TContainer false [tA; tB; tC; tD; tE; tF; tG; tH; tI; tJ; tK]) (VCont [av; bv; cv; dv; ev; fv; gv; hv; iv; jv; kv]) = true -> len (enc (TContainer false [tA; tB; tC; tD; tE; tF; tG; tH; tI; tJ; tK]) (VCont [av; bv; cv; dv; ev; fv; gv; hv; iv; jv; kv])) < two32 ->
  e_fixed_len tA + e_fixed_len tB + e_fixed_len tC + e_fixed_len tD + e_fixed_len tE + e_fixed_len tF + e_fixed_len tG + e_fixed_len tH + e_fixed_len tI + e_fixed_len tJ + e_fixed_len tK + len (enc tA av) + len (enc tB bv) + len (enc tC cv) + len (enc tD dv) + len (enc tE ev) + len (enc tF fv) + len (enc tG gv) + len (enc tH hv) + len (enc tI iv) + len (enc tJ jv) <= usize_max ->
  (do bs <- GenD.tuple11_ssz_append (e_is_fixed tA) (e_fixed_len tA) (app_of tA) (e_is_fixed tB) (e_fixed_len tB) (app_of tB) (e_is_fixed tC) (e_fixed_len tC) (app_of tC) (e_is_fixed tD) (e_fixed_len tD) (app_of tD) (e_is_fixed tE) (e_fixed_len tE) (app_of tE) (e_is_fixed tF) (e_fixed_len tF) (app_of tF) (e_is_fixed tG) (e_fixed_len tG) (app_of tG) (e_is_fixed tH) (e_fixed_len tH) (app_of tH) (e_is_fixed tI) (e_fixed_len tI) (app_of tI) (e_is_fixed tJ) (e_fixed_len tJ) (app_of tJ) (e_is_fixed tK) (e_fixed_len tK) (app_of tK) (av, bv, cv, dv, ev, fv, gv, hv, iv, jv, kv) [];
   GenD.tuple11_from_ssz_bytes (d_is_fixed tA) (d_fixed_len tA) (dec tA) (d_is_fixed tB) (d_fixed_len tB) (dec tB) (d_is_fixed tC) (d_fixed_len tC) (dec tC) (d_is_fixed tD) (d_fixed_len tD) (dec tD) (d_is_fixed tE) (d_fixed_len tE) (dec tE) (d_is_fixed tF) (d_fixed_len tF) (dec tF) (d_is_fixed tG) (d_fixed_len tG) (dec tG) (d_is_fixed tH) (d_fixed_len tH) (dec tH) (d_is_fixed tI) (d_fixed_len tI) (dec tI) (d_is_fixed tJ) (d_fixed_len tJ) (dec tJ) (d_is_fixed tK) (d_fixed_len tK) (dec tK) bs) = Ok (av, bv, cv, dv, ev, fv, gv, hv, iv, jv, kv).
Proof.
  intros Hrt Hty Hlen Hfit. apply (chain_round_trip tA [tB; tC; tD; tE; tF; tG; tH; tI; tJ; tK] [av; bv; cv; dv; ev; fv; gv; hv; iv; jv; kv] tup11 Hrt Hty Hlen).
  cbn [fold_left map app removelast combine]. exact Hfit.
Qed.
Print Assumptions Src_C01_tuple11.

Theorem Src_C02_tuple11 tA tB tC tD tE tF tG tH tI tJ tK bs p :
  canon_type (TContainer false [tA; tB; tC; tD; tE; tF; tG; tH; tI; tJ; tK]) = true -> phys bs -> 2 * len bs <= usize_max ->
  GenD.tuple11_from_ssz_bytes (d_is_fixed tA) (d_fixed_len tA) (dec tA) (d_is_fixed tB) (d_fixed_len tB) (dec tB) (d_is_fixed tC) (d_fixed_len tC) (dec tC) (d_is_fixed tD) (d_fixed_len tD) (dec tD) (d_is_fixed tE) (d_fixed_len tE) (dec tE) (d_is_fixed tF) (d_fixed_len tF) (dec tF) (d_is_fixed tG) (d_fixed_len tG) (dec tG) (d_is_fixed tH) (d_fixed_len tH) (dec tH) (d_is_fixed tI) (d_fixed_len tI) (dec tI) (d_is_fixed tJ) (d_fixed_len tJ) (dec tJ) (d_is_fixed tK) (d_fixed_len tK) (dec tK) bs = Ok p ->
  GenD.tuple11_ssz_append (e_is_fixed tA) (e_fixed_len tA) (app_of tA) (e_is_fixed tB) (e_fixed_len tB) (app_of tB) (e_is_fixed tC) (e_fixed_len tC) (app_of tC) (e_is_fixed tD) (e_fixed_len tD) (app_of tD) (e_is_fixed tE) (e_fixed_len tE) (app_of tE) (e_is_fixed tF) (e_fixed_len tF) (app_of tF) (e_is_fixed tG) (e_fixed_len tG) (app_of tG) (e_is_fixed tH) (e_fixed_len tH) (app_of tH) (e_is_fixed tI) (e_fixed_len tI) (app_of tI) (e_is_fixed tJ) (e_fixed_len tJ) (app_of tJ) (e_is_fixed tK) (e_fixed_len tK) (app_of tK) p [] = Ok bs.
Proof.
  intros Hc Hp HF Hr.
  destruct (chain_canonical [tA; tB; tC; tD; tE; tF; tG; tH; tI; tJ; tK] bs tup11 p Hc Hp Hr) as ([|av [|bv [|cv [|dv [|ev [|fv [|gv [|hv [|iv [|jv [|kv [|]]]]]]]]]]]] & Hk & Hty & He); try discriminate.
  injection Hk as <-. rewrite <- He in *. exact (append_chain_run_eq tA [tB; tC; tD; tE; tF; tG; tH; tI; tJ; tK] [av; bv; cv; dv; ev; fv; gv; hv; iv; jv; kv] [] (chain_fits _ _ _ Hty HF)).
Qed.
Print Assumptions Src_C02_tuple11.

Theorem Src_C01_tuple12 tA tB tC tD tE tF tG tH tI tJ tK tL av bv cv dv ev fv gv hv iv jv kv lv :
  rt_type (TContainer false [tA; tB; tC; tD; tE; tF; tG; tH; tI; tJ; tK; tL]) = true -> has_ty (TContainer false [tA; tB; tC; tD; tE; tF; tG; tH; tI; tJ; tK; tL]) (VCont [av; bv; cv; dv; ev; fv; gv; hv; iv; jv; kv; lv]) = true -> len (enc (TContainer false [tA; tB; tC; tD; tE; tF; tG; tH; tI; tJ; tK; tL]) (VCont [av; bv; cv; dv; ev; fv; gv; hv; iv; jv; kv; lv])) < two32 ->
  e_fixed_len tA + e_fixed_len tB + e_fixed_len tC + e_fixed_len tD + e_fixed_len tE + e_fixed_len tF + e_fixed_len tG + e_fixed_len tH + e_fixed_len tI + e_fixed_len tJ + e_fixed_len tK + e_fixed_len tL + len (enc tA av) + len (enc tB bv) + len (enc tC cv) + len (enc tD dv) + len (enc tE ev) + len (enc tF fv) + len (enc tG gv) + len (enc tH hv) + len (enc tI iv) + len (enc tJ jv) + len (enc tK kv) <= usize_max ->
  (do bs <- GenD.tuple12_ssz_append (e_is_fixed tA) (e_fixed_len tA) (app_of tA) (e_is_fixed tB) (e_fixed_len tB) (app_of tB) (e_is_fixed tC) (e_fixed_len tC) (app_of tC) (e_is_fixed tD) (e_fixed_len tD) (app_of tD) (e_is_fixed tE) (e_fixed_len tE) (app_of tE) (e_is_fixed tF) (e_fixed_len tF) (app_of tF) (e_is_fixed tG) (e_fixed_len tG) (app_of tG) (e_is_fixed tH) (e_fixed_len tH) (app_of tH) (e_is_fixed tI) (e_fixed_len tI) (app_of tI) (e_is_fixed tJ) (e_fixed_len tJ) (app_of tJ) (e_is_fixed tK) (e_fixed_len tK) (app_of tK) (e_is_fixed tL) (e_fixed_len tL) (app_of tL) (av, bv, cv, dv, ev, fv, gv, hv, iv, jv, kv, lv) [];
   GenD.tuple12_from_ssz_bytes (d_is_fixed tA) (d_fixed_len tA) (dec tA) (d_is_fixed tB) (d_fixed_len tB) (dec tB) (d_is_fixed tC) (d_fixed_len tC) (dec tC) (d_is_fixed tD) (d_fixed_len tD) (dec tD) (d_is_fixed tE) (d_fixed_len tE) (dec tE) (d_is_fixed tF) (d_fixed_len tF) (dec tF) (d_is_fixed tG) (d_fixed_len tG) (dec tG) (d_is_fixed tH) (d_fixed_len tH) (dec tH) (d_is_fixed tI) (d_fixed_len tI) (dec tI) (d_is_fixed tJ) (d_fixed_len tJ) (dec tJ) (d_is_fixed tK) (d_fixed_len tK) (dec tK) (d_is_fixed tL) (d_fixed_len tL) (dec tL) bs) = Ok (av, bv, cv, dv, ev, fv, gv, hv, iv, jv, kv, lv).
Proof.
  intros Hrt Hty Hlen Hfit. apply (chain_round_trip tA [tB; tC; tD; tE; tF; tG; tH; tI; tJ; tK; tL] [av; bv; cv; dv; ev; fv; gv; hv; iv; jv; kv; lv] tup12 Hrt Hty Hlen).
  cbn [fold_left map app removelast combine]. exact Hfit.
Qed.
Print Assumptions Src_C01_tuple12.

Theorem Src_C02_tuple12 tA tB tC tD tE tF tG tH tI tJ tK tL bs p :
  canon_type (TContainer false [tA; tB; tC; tD; tE; tF; tG; tH; tI; tJ; tK; tL]) = true -> phys bs -> 2 * len bs <= usize_max ->
  GenD.tuple12_from_ssz_bytes (d_is_fixed tA) (d_fixed_len tA) (dec tA) (d_is_fixed tB) (d_fixed_len tB) (dec tB) (d_is_fixed tC) (d_fixed_len tC) (dec tC) (d_is_fixed tD) (d_fixed_len tD) (dec tD) (d_is_fixed tE) (d_fixed_len tE) (dec tE) (d_is_fixed tF) (d_fixed_len tF) (dec tF) (d_is_fixed tG) (d_fixed_len tG) (dec tG) (d_is_fixed tH) (d_fixed_len tH) (dec tH) (d_is_fixed tI) (d_fixed_len tI) (dec tI) (d_is_fixed tJ) (d_fixed_len tJ) (dec tJ) (d_is_fixed tK) (d_fixed_len tK) (dec tK) (d_is_fixed tL) (d_fixed_len tL) (dec tL) bs = Ok p ->
  GenD.tuple12_ssz_append (e_is_fixed tA) (e_fixed_len tA) (app_of tA) (e_is_fixed tB) (e_fixed_len tB) (app_of tB) (e_is_fixed tC) (e_fixed_len tC) (app_of tC) (e_is_fixed tD) (e_fixed_len tD) (app_of tD) (e_is_fixed tE) (e_fixed_len tE) (app_of tE) (e_is_fixed tF) (e_fixed_len tF) (app_of tF) (e_is_fixed tG) (e_fixed_len tG) (app_of tG) (e_is_fixed tH) (e_fixed_len tH) (app_of tH) (e_is_fixed tI) (e_fixed_len tI) (app_of tI) (e_is_fixed tJ) (e_fixed_len tJ) (app_of tJ) (e_is_fixed tK) (e_fixed_len tK) (app_of tK) (e_is_fixed tL) (e_fixed_len tL) (app_of tL) p [] = Ok bs.
Proof.
  intros Hc Hp HF Hr.
  destruct (chain_canonical [tA; tB; tC; tD; tE; tF; tG; tH; tI; tJ; tK; tL] bs tup12 p Hc Hp Hr) as ([|av [|bv [|cv [|dv [|ev [|fv [|gv [|hv [|iv [|jv [|kv [|lv [|]]]]]]]]]]]]] & Hk & Hty & He); try discriminate.
  injection Hk as <-. rewrite <- He in *. exact (append_chain_run_eq tA [tB; tC; tD; tE; tF; tG; tH; tI; tJ; tK; tL] [av; bv; cv; dv; ev; fv; gv; hv; iv; jv; kv; lv] [] (chain_fits _ _ _ Hty HF)).
Qed.
Print Assumptions Src_C02_tuple12.
