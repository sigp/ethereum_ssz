(** * Exact accept sets (C04), fixed-size inputs (C07), union selectors (C15) and ordered
    collections (C19): corollaries of round trip, canonicity and the wire format. *)
From SSZ Require Import BaseFacts OffsetsFacts BuilderFacts BitfieldFacts Codec Spec CodecUnfold
     AppendFacts LeafProof ListDecFacts SpecFacts OrderFacts RoundTrip Canon.
From Coq Require Import ZArith ZifyN ZifyNat ZifyBool.
Open Scope N_scope.

Definition strict_type (t : ty) : bool := canon_type t && rt_type t.

(** C04 for strict types: decoding succeeds exactly on the valid serializations and returns
    the value the specification assigns. *)
Theorem dec_iff_valid t bs v :
  strict_type t = true -> phys bs -> len bs < 4294967296 ->
  (dec t bs = Ok v <-> Valid t bs v).
Proof.
  intros Hs Hp Hl. unfold strict_type in Hs. apply andb_prop in Hs as [Hc Hr]. split.
  - intros Hd. destruct (canon_facts leaf_facts t Hc bs v Hp Hd) as [He Hty].
    split; [exact Hty|]. rewrite <- (spec_facts leaf_facts t v Hty). exact He.
  - intros [Hty Hsp]. rewrite <- (spec_facts leaf_facts t v Hty) in Hsp. subst bs.
    exact (rt_facts leaf_facts t Hr v Hty Hl).
Qed.

(** Sets and maps: whatever is accepted is a well-formed entry list, and the result is the
    collection of its entries. *)
Lemma dec_collection_forward a m bs r :
  canon_type a = true -> phys bs ->
  omap (fun l => VList (collect_entries m l)) (dec_seq (d_is_fixed a) (d_fixed_len a) (dec a) bs) = Ok r ->
  exists es, dec (TList a) bs = Ok (VList es) /\ Valid (TList a) bs (VList es) /\
             r = VList (collect_entries m es).
Proof.
  intros Hc Hp Hd. apply omap_ok in Hd as (es & Hd & ->). exists es.
  assert (Hl : dec (TList a) bs = Ok (VList es)) by now rewrite dec_list_eq, Hd.
  assert (Hcl : canon_type (TList a) = true) by (unfold canon_type in *; cbn [ty_all]; now rewrite Hc).
  destruct (canon_facts leaf_facts (TList a) Hcl bs _ Hp Hl) as [He Hty].
  repeat split; auto. now rewrite <- (spec_facts leaf_facts _ _ Hty).
Qed.

Theorem dec_set_forward t bs m :
  canon_type t = true -> phys bs -> dec (TSet t) bs = Ok m ->
  exists es, dec (TList t) bs = Ok (VList es) /\ Valid (TList t) bs (VList es) /\
             m = VList (collect_entries false es).
Proof. rewrite dec_set_eq. apply dec_collection_forward. Qed.

Theorem dec_map_forward k v bs m :
  canon_type k = true -> canon_type v = true -> phys bs -> dec (TMap k v) bs = Ok m ->
  exists es, dec (TList (TContainer false [k; v])) bs = Ok (VList es) /\
             Valid (TList (TContainer false [k; v])) bs (VList es) /\
             m = VList (collect_entries true es).
Proof.
  intros Hk Hv. rewrite dec_map_eq. apply dec_collection_forward.
  unfold canon_type in *. cbn [ty_all]. now rewrite Hk, Hv.
Qed.

(** C07: a fixed-size type accepts only inputs of its fixed length. *)
Theorem fixed_dec_len t : d_is_fixed t = true ->
  forall bs v, phys bs -> dec t bs = Ok v -> len bs = d_fixed_len t.
Proof.
  induction t using ty_ind'; intros Hf bs v Hp Hd; try discriminate.
  - cbn [dec] in Hd. destruct (len bs =? N.of_nat k) eqn:E; [|discriminate]. now apply N.eqb_eq in E.
  - cbn [dec] in Hd. unfold dec_bool in Hd. destruct bs as [|b [|? ?]]; try discriminate. reflexivity.
  - cbn [dec] in Hd. destruct (len bs =? 8) eqn:E; [|discriminate]. now apply N.eqb_eq in E.
  - cbn [dec] in Hd. destruct (len bs =? N.of_nat n) eqn:E; [|discriminate]. now apply N.eqb_eq in E.
  - (* TContainer *) rewrite d_is_fixed_container in Hf. rewrite d_fixed_len_container, Hf, <- regs_of_snd.
    rewrite <- regs_of_fst in Hf. rewrite (dec_container_builder d fs bs Hp) in Hd.
    apply bind_ok in Hd as (items & Hb & _).
    apply (builder_build_tiles _ _ _ (proj1 Hp) (proj2 Hp)), (tiles_all_fixed _ Hf) in Hb as [HF ->].
    exact (all_fixed_len _ _ HF).
  - cbn [dec] in Hd. destruct bs as [|b [|? ?]]; try discriminate. reflexivity.
  - exact (IHt Hf bs v Hp Hd).
  - cbn [dec] in Hd. apply omap_ok in Hd as (b & Hd & _).
    destruct (from_raw_bytes_Inv bs n b (proj1 Hp) Hd) as ((Hl & _) & Hb & Hn). now rewrite <- Hb, <- Hn.
Qed.

(** C15: a selector past the declared variants is refused. *)
Theorem dec_union_undeclared ts s body :
  (length ts <= N.to_nat s)%nat -> dec (TUnion ts) (s :: body) = Err.
Proof.
  intros H. rewrite dec_union_selector. destruct (s <=? 127); [|reflexivity].
  now rewrite (proj2 (nth_error_None ts (N.to_nat s)) H).
Qed.

Theorem set_encodes_as_list t vs : enc (TSet t) (VList vs) = enc (TList t) (VList vs).
Proof. now rewrite enc_set, enc_list. Qed.
Theorem dec_set_is_collect t bs :
  dec (TSet t) bs =
  match dec (TList t) bs with
  | Ok (VList es) => Ok (VList (collect_entries false es))
  | Ok _ => Err | Err => Err | Panic => Panic
  end.
Proof. rewrite dec_set_eq, dec_list_eq. destruct (dec_seq _ _ _ bs); reflexivity. Qed.
Theorem dec_map_is_collect k v bs :
  dec (TMap k v) bs =
  match dec (TList (TContainer false [k; v])) bs with
  | Ok (VList es) => Ok (VList (collect_entries true es))
  | Ok _ => Err | Err => Err | Panic => Panic
  end.
Proof. rewrite dec_map_eq, dec_list_eq. destruct (dec_seq _ _ _ bs); reflexivity. Qed.
