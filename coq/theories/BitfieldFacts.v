(** * BitfieldFacts: the representation invariant of bitfields and the leaf-type interface
    (round trip, canonicity, no panic, agreement with the spec) of BitVector / BitList /
    Dynamic bitfields. *)
From SSZ Require Import Base BaseFacts LayoutFacts Bitfield Spec.
From Coq Require Import ZArith ZifyN ZifyNat ZifyBool.
Open Scope N_scope.

Definition bit_at (bs : bytes) (i : N) : bool :=
  match nthN bs (i / 8) with Some byte => N.testbit byte (i mod 8) | None => false end.
(* the representation invariant of every reachable bitfield *)
Definition Inv (b : bf) : Prop :=
  len (bf_bytes b) = bytes_for_bit_len (bf_len b) /\ wfb (bf_bytes b) /\
  (forall i, bf_len b <= i -> bit_at (bf_bytes b) i = false).
Lemma Inv_above b i : Inv b -> bf_len b <= i -> bit_at (bf_bytes b) i = false.
Proof. intros (_ & _ & Hz). apply Hz. Qed.

Lemma lt_pow2_bits b n : b < 2 ^ n <-> forall j, n <= j -> N.testbit b j = false.
Proof.
  destruct (N.eq_0_gt_0_cases b) as [->|H0].
  - split; [intros _ j _; apply N.bits_0 | intros _; apply N.neq_0_lt_0, N.pow_nonzero; discriminate].
  - rewrite (N.log2_lt_pow2 _ _ H0). split.
    + intros H j Hj. apply N.bits_above_log2. lia.
    + intros H. apply N.nle_gt. intros Hle. apply H in Hle.
      rewrite N.bit_log2 in Hle by lia. discriminate.
Qed.

Lemma byte_high b j : b < 256 -> 8 <= j -> N.testbit b j = false.
Proof. intros H. exact (proj1 (lt_pow2_bits b 8) H j). Qed.

Lemma byte_ext a b : a < 256 -> b < 256 ->
  (forall j, j < 8 -> N.testbit a j = N.testbit b j) -> a = b.
Proof.
  intros Ha Hb H. apply N.bits_inj. intros j. destruct (N.lt_ge_cases j 8) as [Hj|Hj].
  - apply H, Hj.
  - rewrite !byte_high by assumption. reflexivity.
Qed.

Lemma land_lt_256 x y : x < 256 -> N.land x y < 256.
Proof.
  intros Hx. apply (lt_pow2_bits _ 8). intros j Hj.
  rewrite N.land_spec, (byte_high x) by assumption. reflexivity.
Qed.
Lemma lor_lt_256 x y : x < 256 -> y < 256 -> N.lor x y < 256.
Proof.
  intros Hx Hy. apply (lt_pow2_bits _ 8). intros j Hj.
  rewrite N.lor_spec, !byte_high by assumption. reflexivity.
Qed.

Lemma shl8_1 k : k < 8 -> shl8 1 k = 2 ^ k.
Proof.
  intros H. unfold shl8. rewrite N.shiftl_1_l. apply N.mod_small.
  apply (N.pow_lt_mono_r 2 k 8); [reflexivity | exact H].
Qed.
Lemma not8_bit y j : j < 8 -> N.testbit (not8 y) j = negb (N.testbit y j).
Proof.
  intros Hj. unfold not8. rewrite N.lxor_spec. change 255 with (N.ones 8).
  rewrite N.ones_spec_low by exact Hj. reflexivity.
Qed.

Lemma byte_set_bits b k j : k < 8 ->
  N.testbit (N.lor b (shl8 1 k)) j = if j =? k then true else N.testbit b j.
Proof.
  intros Hk. rewrite N.lor_spec, shl8_1, N.pow2_bits_eqb, N.eqb_sym by exact Hk.
  destruct (j =? k); [apply Bool.orb_true_r | apply Bool.orb_false_r].
Qed.
Lemma byte_clr_bits b k j : k < 8 -> j < 8 ->
  N.testbit (N.land b (not8 (shl8 1 k))) j = if j =? k then false else N.testbit b j.
Proof.
  intros Hk Hj. rewrite N.land_spec, not8_bit, shl8_1, N.pow2_bits_eqb, N.eqb_sym by assumption.
  destruct (j =? k); [apply Bool.andb_false_r | apply Bool.andb_true_r].
Qed.
Lemma land_pow2 b k : N.land b (2 ^ k) = if N.testbit b k then 2 ^ k else 0.
Proof.
  apply N.bits_inj. intros j. rewrite N.land_spec, N.pow2_bits_eqb.
  destruct (N.eqb_spec k j) as [<-|Hn].
  - rewrite Bool.andb_true_r. destruct (N.testbit b k); [rewrite N.pow2_bits_true | rewrite N.bits_0]; reflexivity.
  - rewrite Bool.andb_false_r. destruct (N.testbit b k); [rewrite N.pow2_bits_false by exact Hn | rewrite N.bits_0]; reflexivity.
Qed.
Lemma byte_get b k : k < 8 -> (0 <? N.land b (shl8 1 k)) = N.testbit b k.
Proof.
  intros Hk. rewrite shl8_1, land_pow2 by exact Hk. destruct (N.testbit b k); [|reflexivity].
  apply N.ltb_lt, N.neq_0_lt_0, N.pow_nonzero. discriminate.
Qed.
(* [m] is the number of bits of the last byte that are in use; the mask that
   [from_raw_bytes] computes for it is [N.ones m]. *)
Lemma byte_mask b m : b < 256 -> 0 < m <= 8 ->
  N.land b (not8 (overflowing_shr8 255 (8 - m mod 8))) = 0 <->
  forall j, m <= j -> N.testbit b j = false.
Proof.
  intros Hb Hm. replace (overflowing_shr8 255 (8 - m mod 8)) with (N.ones m).
  2:{ unfold overflowing_shr8. replace ((8 - m mod 8) mod 8) with (8 - m) by lia.
      change 255 with (N.ones 8). rewrite N.shiftr_div_pow2, N.ones_div_pow2 by lia. f_equal. lia. }
  rewrite <- N.bits_inj_iff. split.
  - intros H j Hj. destruct (N.lt_ge_cases j 8) as [H8|H8]; [|apply byte_high; assumption].
    specialize (H j).
    rewrite N.land_spec, not8_bit, N.ones_spec_high, N.bits_0, Bool.andb_true_r in H by assumption.
    exact H.
  - intros H j. rewrite N.land_spec, N.bits_0. destruct (N.lt_ge_cases j m) as [Hj|Hj].
    + rewrite not8_bit, N.ones_spec_low by lia. apply Bool.andb_false_r.
    + rewrite H by exact Hj. reflexivity.
Qed.

Definition byte_of_bits (f : nat -> bool) : N :=
  sumN (map (fun i => if f i then 2 ^ N.of_nat i else 0) (seq 0 8)).
(* binary expansion, the top digit split off: [b = b mod 2^n + (bit n of b) * 2^n] *)
Lemma bits_decomp n b : b < 2 ^ N.of_nat n ->
  b = sumN (map (fun i => if N.testbit b (N.of_nat i) then 2 ^ N.of_nat i else 0) (seq 0 n)).
Proof.
  revert b. induction n as [|n IH]; intros b Hb.
  - apply N.lt_1_r in Hb. subst b. reflexivity.
  - rewrite seq_S, map_app, sumN_app. cbn [Nat.add map sumN]. rewrite N.add_0_r.
    rewrite (map_ext_in _ (fun i => if N.testbit (b mod 2 ^ N.of_nat n) (N.of_nat i) then 2 ^ N.of_nat i else 0)).
    2:{ intros i Hi. apply in_seq in Hi. rewrite N.mod_pow2_bits_low by lia. reflexivity. }
    assert (Hp : 2 ^ N.of_nat n <> 0) by (apply N.pow_nonzero; discriminate).
    rewrite <- IH by (apply N.mod_lt; exact Hp).
    rewrite Nat2N.inj_succ, N.pow_succ_r', N.mul_comm in Hb. apply N.div_lt_upper_bound in Hb; [|exact Hp].
    pose proof (N.testbit_spec' b (N.of_nat n)) as Ht. rewrite N.mod_small in Ht by exact Hb.
    rewrite (N.div_mod' b (2 ^ N.of_nat n)) at 1. rewrite <- Ht, N.add_comm.
    destruct (N.testbit b (N.of_nat n)); cbn [N.b2n]; [rewrite N.mul_1_r | rewrite N.mul_0_r]; reflexivity.
Qed.
Lemma byte_decomp b : b < 256 -> b = byte_of_bits (fun i => N.testbit b (N.of_nat i)).
Proof. exact (bits_decomp 8 b). Qed.
Lemma byte_of_bits_ext f g : (forall i, (i < 8)%nat -> f i = g i) -> byte_of_bits f = byte_of_bits g.
Proof.
  intros H. unfold byte_of_bits. f_equal. apply map_ext_in. intros i Hi. apply in_seq in Hi.
  rewrite H by lia. reflexivity.
Qed.
Lemma byte_log2 b : b < 256 -> 0 < b ->
  N.log2 b < 8 /\ N.testbit b (N.log2 b) = true /\
  (forall j, N.log2 b < j -> N.testbit b j = false).
Proof.
  intros Hb H0. split; [|split].
  - apply N.log2_lt_pow2; [exact H0|]. change (2 ^ 8) with 256. exact Hb.
  - apply N.bit_log2. lia.
  - intros j Hj. apply N.bits_above_log2. exact Hj.
Qed.

Lemma bfbl_spec n :
  1 <= bytes_for_bit_len n /\ n <= 8 * bytes_for_bit_len n <= N.max 8 (n + 7).
Proof. unfold bytes_for_bit_len. lia. Qed.
Lemma bfbl_succ l : bytes_for_bit_len (l + 1) = l / 8 + 1.
Proof. unfold bytes_for_bit_len. lia. Qed.

Lemma nthN_ge l i : len l <= i -> nthN l i = None.
Proof.
  revert i. induction l as [|x r IH]; intros i H; cbn [nthN]; [reflexivity|].
  rewrite len_cons in H. destruct (i =? 0) eqn:E; [lia|]. apply IH. lia.
Qed.
Lemma nthN_lt l i : i < len l -> exists x, nthN l i = Some x.
Proof.
  revert i. induction l as [|x r IH]; intros i H.
  - rewrite len_nil in H. lia.
  - rewrite len_cons in H. cbn [nthN]. destruct (i =? 0) eqn:E; [eauto|]. apply IH. lia.
Qed.
Lemma nthN_wfb l i x : wfb l -> nthN l i = Some x -> x < 256.
Proof.
  intros Hw. revert i. induction Hw as [|y r Hy _ IH]; intros i H; cbn [nthN] in H.
  - discriminate.
  - destruct (i =? 0); [injection H as <-; exact Hy | eapply IH; eauto].
Qed.
Lemma len_updN l i x : len (updN l i x) = len l.
Proof.
  revert i. induction l as [|y r IH]; intros i; cbn [updN]; [reflexivity|].
  destruct (i =? 0); rewrite !len_cons; [reflexivity | rewrite IH; reflexivity].
Qed.
Lemma wfb_updN l i x : wfb l -> x < 256 -> wfb (updN l i x).
Proof.
  intros Hw Hx. revert i. induction Hw as [|y r Hy Hr IH]; intros i; cbn [updN].
  - constructor.
  - destruct (i =? 0); constructor; auto. apply IH.
Qed.
Lemma nthN_updN l i x y j :
  nthN l i = Some y -> nthN (updN l i x) j = if j =? i then Some x else nthN l j.
Proof.
  revert i j. induction l as [|z r IH]; intros i j H; [discriminate|].
  cbn [nthN updN] in *. destruct (N.eqb_spec i 0) as [->|Hi]; cbn [nthN].
  - destruct (j =? 0); reflexivity.
  - destruct (N.eqb_spec j 0) as [->|Hj].
    + replace (0 =? i) with false by lia. reflexivity.
    + rewrite IH by exact H. replace (j - 1 =? i - 1) with (j =? i) by lia. reflexivity.
Qed.

Lemma bit_at_nil i : bit_at [] i = false.
Proof. reflexivity. Qed.
Lemma bit_at_cons x r j :
  bit_at (x :: r) j = if j <? 8 then N.testbit x j else bit_at r (j - 8).
Proof.
  unfold bit_at. cbn [nthN]. destruct (j <? 8) eqn:E.
  - replace (j / 8 =? 0) with true by lia. replace (j mod 8) with j by lia. reflexivity.
  - replace (j / 8 =? 0) with false by lia.
    replace ((j - 8) / 8) with (j / 8 - 1) by lia.
    replace ((j - 8) mod 8) with (j mod 8) by lia. reflexivity.
Qed.
Lemma bit_at_lo x r j : j < 8 -> bit_at (x :: r) j = N.testbit x j.
Proof. intros H. rewrite bit_at_cons. apply N.ltb_lt in H. rewrite H. reflexivity. Qed.
Lemma bit_at_hi x r j : bit_at (x :: r) (j + 8) = bit_at r j.
Proof. rewrite bit_at_cons. replace (j + 8 <? 8) with false by lia. rewrite N.add_sub. reflexivity. Qed.
Lemma bit_at_out bs i : 8 * len bs <= i -> bit_at bs i = false.
Proof. intros H. unfold bit_at. rewrite nthN_ge by lia. reflexivity. Qed.
Lemma bit_at_app a b i :
  bit_at (a ++ b) i = if i <? 8 * len a then bit_at a i else bit_at b (i - 8 * len a).
Proof.
  revert i. induction a as [|x r IH]; intros i.
  - rewrite len_nil. cbn [app]. replace (i <? 8 * 0) with false by lia.
    replace (i - 8 * 0) with i by lia. reflexivity.
  - cbn [app]. rewrite !bit_at_cons, IH, len_cons.
    destruct (i <? 8) eqn:E1.
    + replace (i <? 8 * (len r + 1)) with true by lia. reflexivity.
    + destruct (i - 8 <? 8 * len r) eqn:E2.
      * replace (i <? 8 * (len r + 1)) with true by lia. reflexivity.
      * replace (i <? 8 * (len r + 1)) with false by lia. f_equal. lia.
Qed.
Lemma bit_at_app_l a b i : i < 8 * len a -> bit_at (a ++ b) i = bit_at a i.
Proof. intros H. rewrite bit_at_app. replace (i <? 8 * len a) with true by lia. reflexivity. Qed.
Lemma bit_at_app_r a b j : bit_at (a ++ b) (8 * len a + j) = bit_at b j.
Proof.
  rewrite bit_at_app. replace (8 * len a + j <? 8 * len a) with false by lia. f_equal. lia.
Qed.
Lemma bit_at_updN bs k x y j : nthN bs k = Some y ->
  bit_at (updN bs k x) j = if j / 8 =? k then N.testbit x (j mod 8) else bit_at bs j.
Proof.
  intros H. unfold bit_at. rewrite (nthN_updN _ _ _ _ _ H). destruct (j / 8 =? k); reflexivity.
Qed.
Lemma len_zeros n : len (zeros n) = n.
Proof. unfold len, zeros. rewrite repeat_length. lia. Qed.
Lemma wfb_zeros n : wfb (zeros n).
Proof.
  unfold zeros, wfb. apply Forall_forall. intros x Hx. apply repeat_spec in Hx. lia.
Qed.
Lemma bit_at_zeros n i : bit_at (zeros n) i = false.
Proof.
  unfold zeros. generalize (N.to_nat n) as k. intros k. revert i.
  induction k as [|k IH]; intros i; cbn [repeat].
  - reflexivity.
  - rewrite bit_at_cons, IH. destruct (i <? 8); [apply N.bits_0 | reflexivity].
Qed.
Lemma bit_at_firstn k bs i :
  bit_at (firstn k bs) i = if i <? 8 * N.of_nat k then bit_at bs i else false.
Proof.
  revert bs i. induction k as [|k IH]; intros bs i.
  - cbn [firstn]. replace (i <? 8 * N.of_nat 0) with false by lia. reflexivity.
  - destruct bs as [|x r]; cbn [firstn].
    + rewrite bit_at_nil. destruct (i <? _); reflexivity.
    + rewrite !bit_at_cons, IH. destruct (i <? 8) eqn:E1.
      * replace (i <? 8 * N.of_nat (S k)) with true by lia. reflexivity.
      * destruct (i - 8 <? 8 * N.of_nat k) eqn:E2.
        -- replace (i <? 8 * N.of_nat (S k)) with true by lia. reflexivity.
        -- replace (i <? 8 * N.of_nat (S k)) with false by lia. reflexivity.
Qed.
Lemma bit_at_take n bs i :
  bit_at (take n bs) i = if i <? 8 * n then bit_at bs i else false.
Proof. unfold take. rewrite bit_at_firstn, N2Nat.id. reflexivity. Qed.

Lemma bytes_ext a b : len a = len b -> wfb a -> wfb b ->
  (forall i, bit_at a i = bit_at b i) -> a = b.
Proof.
  revert b. induction a as [|x r IH]; intros [|y s] Hl Ha Hb H.
  - reflexivity.
  - rewrite len_nil, len_cons in Hl. lia.
  - rewrite len_nil, len_cons in Hl. lia.
  - rewrite !len_cons in Hl. inversion Ha as [|? ? Hx Hr]; subst.
    inversion Hb as [|? ? Hy Hs]; subst. f_equal.
    + apply byte_ext; auto. intros j Hj.
      rewrite <- (bit_at_lo x r j Hj), <- (bit_at_lo y s j Hj). apply H.
    + apply IH; auto; [lia|]. intros i. rewrite <- (bit_at_hi x r), <- (bit_at_hi y s). apply H.
Qed.

Lemma Inv_nth b i : Inv b -> i < bf_len b ->
  exists x, nthN (bf_bytes b) (i / 8) = Some x /\ x < 256.
Proof.
  intros (Hl & Hw & _) Hi. destruct (nthN_lt (bf_bytes b) (i / 8)) as [x Hx].
  - rewrite Hl. pose proof (bfbl_spec (bf_len b)). lia.
  - exists x. split; [exact Hx|]. eapply nthN_wfb; eauto.
Qed.

Lemma bf_get_bit_at b i : Inv b -> i < bf_len b -> bf_get b i = Ok (bit_at (bf_bytes b) i).
Proof.
  intros HI Hi. destruct (Inv_nth b i HI Hi) as (x & Hx & Hx256). unfold bf_get, bit_at.
  replace (i <? bf_len b) with true by lia. rewrite Hx. rewrite byte_get by lia. reflexivity.
Qed.
Lemma bf_get_out b i : bf_len b <= i -> bf_get b i = Err.
Proof. intros H. unfold bf_get. replace (i <? bf_len b) with false by lia. reflexivity. Qed.
Lemma bf_set_out b i v : bf_len b <= i -> bf_set b i v = Err.
Proof. intros H. unfold bf_set. replace (i <? bf_len b) with false by lia. reflexivity. Qed.

Lemma eqb_divmod8 i j : (j =? i) = (j / 8 =? i / 8) && (j mod 8 =? i mod 8).
Proof.
  apply Bool.eq_iff_eq_true. rewrite Bool.andb_true_iff, !N.eqb_eq. split; [intros ->; auto|].
  intros [Hd Hm]. rewrite (N.div_mod j 8), (N.div_mod i 8), Hd, Hm by discriminate. reflexivity.
Qed.

Lemma bf_set_ok b i v : Inv b -> i < bf_len b ->
  exists b', bf_set b i v = Ok b' /\ Inv b' /\ bf_len b' = bf_len b /\
             (forall j, bit_at (bf_bytes b') j = if j =? i then v else bit_at (bf_bytes b) j).
Proof.
  intros HI Hi. destruct (Inv_nth b i HI Hi) as (x & Hx & Hx256). destruct HI as (Hl & Hw & Hz).
  assert (Hk : i mod 8 < 8) by (apply N.mod_lt; discriminate).
  unfold bf_set. replace (i <? bf_len b) with true by lia. rewrite Hx.
  set (x' := if v then _ else _).
  assert (Hbit : forall j, bit_at (updN (bf_bytes b) (i / 8) x') j =
                           if j =? i then v else bit_at (bf_bytes b) j).
  { intros j. rewrite (bit_at_updN _ _ _ _ _ Hx), (eqb_divmod8 i j).
    destruct (N.eqb_spec (j / 8) (i / 8)) as [E|E]; [|reflexivity].
    cbn [andb]. unfold bit_at. rewrite E, Hx. unfold x'. destruct v.
    - apply byte_set_bits, Hk.
    - apply byte_clr_bits; [exact Hk | apply N.mod_lt; discriminate]. }
  eexists. split; [reflexivity|]. split; [|split; [reflexivity | exact Hbit]].
  split; [|split]; cbn [bf_bytes bf_len].
  - rewrite len_updN. exact Hl.
  - apply wfb_updN; [exact Hw|]. unfold x'.
    destruct v; [apply lor_lt_256 | apply land_lt_256]; try exact Hx256. apply N.mod_lt. discriminate.
  - intros j Hj. rewrite Hbit. replace (j =? i) with false by lia. apply Hz, Hj.
Qed.

Lemma iter_fuel_spec f b i : Inv b -> i + N.of_nat f <= bf_len b ->
  iter_fuel f b i = map (fun k => bit_at (bf_bytes b) (i + N.of_nat k)) (seq 0 f).
Proof.
  intros HI. revert i. induction f as [|f IH]; intros i H; [reflexivity|].
  cbn [iter_fuel]. rewrite bf_get_bit_at by (auto; lia). rewrite IH by lia.
  cbn [seq map]. rewrite <- seq_shift, map_map. f_equal.
  - f_equal. lia.
  - apply map_ext. intros k. f_equal. lia.
Qed.
Lemma bf_iter_spec b : Inv b ->
  bf_iter b = map (fun k => bit_at (bf_bytes b) (N.of_nat k)) (seq 0 (N.to_nat (bf_len b))).
Proof.
  intros HI. unfold bf_iter. rewrite iter_fuel_spec by (auto; lia).
  apply map_ext. intros k. f_equal.
Qed.
Lemma bf_iter_length b : Inv b -> N.of_nat (length (bf_iter b)) = bf_len b.
Proof. intros HI. rewrite bf_iter_spec, map_length, seq_length by auto. lia. Qed.

Lemma nth_tabulate {A} (f : nat -> A) n k d :
  nth k (map f (seq 0 n)) d = if Nat.ltb k n then f k else d.
Proof.
  destruct (Nat.ltb_spec k n) as [H|H].
  - rewrite (nth_indep _ d (f 0%nat)) by (rewrite map_length, seq_length; exact H).
    rewrite map_nth, seq_nth by exact H. reflexivity.
  - apply nth_overflow. rewrite map_length, seq_length. exact H.
Qed.
Lemma nth_bf_iter b k : Inv b -> nth k (bf_iter b) false = bit_at (bf_bytes b) (N.of_nat k).
Proof.
  intros HI. rewrite bf_iter_spec, nth_tabulate by exact HI.
  destruct (Nat.ltb_spec k (N.to_nat (bf_len b))) as [H|H]; [reflexivity|].
  rewrite Inv_above by (auto; lia). reflexivity.
Qed.

Lemma Inv_ext a b : Inv a -> Inv b -> bf_len a = bf_len b ->
  (forall i, i < bf_len a -> bit_at (bf_bytes a) i = bit_at (bf_bytes b) i) -> a = b.
Proof.
  intros (Hla & Hwa & Hza) (Hlb & Hwb & Hzb) Hlen H. destruct a as [ba la], b as [bb lb].
  cbn [bf_bytes bf_len] in *. subst lb. f_equal. apply bytes_ext; auto; [congruence|].
  intros i. destruct (i <? la) eqn:E; [apply H; lia|]. rewrite Hza, Hzb by lia. reflexivity.
Qed.

Lemma rev_nil_inv {A} (l : list A) : rev l = [] -> l = [].
Proof. intros H. rewrite <- (rev_involutive l), H. reflexivity. Qed.
Lemma rev_cons_inv {A} (l : list A) x t : rev l = x :: t -> l = rev t ++ [x].
Proof. intros H. rewrite <- (rev_involutive l), H. reflexivity. Qed.
Lemma from_raw_bytes_no_panic bs n : from_raw_bytes bs n <> Panic.
Proof.
  unfold from_raw_bytes. destruct (n =? 0) eqn:En.
  - destruct bs as [|b0 [|? ?]]; try discriminate. destruct (b0 =? 0); discriminate.
  - destruct (negb (len bs =? bytes_for_bit_len n)) eqn:El; [discriminate|].
    destruct (rev bs) as [|l t] eqn:Er.
    + apply rev_nil_inv in Er. subst bs.
      rewrite len_nil in El. pose proof (bfbl_spec n). lia.
    + destruct (N.land _ _ =? 0); discriminate.
Qed.

Lemma mask_check bs l t n : wfb bs -> n <> 0 -> len bs = bytes_for_bit_len n -> rev bs = l :: t ->
  ((N.land l (not8 (overflowing_shr8 255 (8 - (n mod 4294967296) mod 8))) =? 0) = true <->
   (forall i, n <= i -> bit_at bs i = false)).
Proof.
  replace ((n mod 4294967296) mod 8) with (n mod 8) by lia.
  intros Hw Hn Hl Hr. apply rev_cons_inv in Hr. subst bs. set (pre := rev t) in *.
  apply wfb_app in Hw. destruct Hw as [_ Hw]. inversion Hw as [|? ? Hl256 _]; subst.
  rewrite len_app, len_cons, len_nil in Hl.
  assert (Hm : 8 * len pre < n <= 8 * len pre + 8) by (pose proof (bfbl_spec n); lia).
  clear Hl. remember (n - 8 * len pre) as m eqn:Em.
  replace (n mod 8) with (m mod 8) by lia.
  rewrite N.eqb_eq, byte_mask by lia. split.
  - intros H i Hi. replace i with (8 * len pre + (i - 8 * len pre)) by lia.
    rewrite bit_at_app_r, bit_at_cons. destruct (_ <? 8); [apply H; lia | apply bit_at_nil].
  - intros H j Hj. destruct (N.lt_ge_cases j 8) as [H8|H8]; [|apply byte_high; assumption].
    rewrite <- (bit_at_lo _ [] j H8), <- (bit_at_app_r pre). apply H. lia.
Qed.

(* [from_raw_bytes] accepts exactly the pairs that satisfy the invariant *)
Lemma from_raw_spec bs n : wfb bs ->
  let b := {| bf_bytes := bs; bf_len := n |} in
  from_raw_bytes bs n = Ok b /\ Inv b \/ from_raw_bytes bs n = Err /\ ~ Inv b.
Proof.
  intros Hw b. unfold Inv, b, from_raw_bytes. cbn [bf_bytes bf_len].
  destruct (N.eqb_spec n 0) as [->|Hn].
  - change (bytes_for_bit_len 0) with 1. destruct bs as [|b0 [|b1 r]].
    + right. split; [reflexivity|]. intros (Hl & _). discriminate Hl.
    + inversion Hw as [|? ? Hb0 _]; subst. destruct (N.eqb_spec b0 0) as [->|H0].
      * left. repeat split; [exact Hw|]. intros i _. apply (bit_at_zeros 1).
      * right. split; [reflexivity|]. intros (_ & _ & Hz). apply H0, byte_ext; [exact Hb0 | lia |].
        intros j Hj. rewrite <- (bit_at_lo _ [] j Hj), Hz, N.bits_0 by lia. reflexivity.
    + right. split; [reflexivity|]. intros (Hl & _). rewrite !len_cons in Hl. lia.
  - destruct (N.eqb_spec (len bs) (bytes_for_bit_len n)) as [Hl|Hl]; cbn [negb].
    2:{ right. split; [reflexivity|]. intros (Hl' & _). contradiction. }
    destruct (rev bs) as [|l t] eqn:Er.
    + apply rev_nil_inv in Er. subst bs. rewrite len_nil in Hl. pose proof (bfbl_spec n). lia.
    + pose proof (mask_check bs l t n Hw Hn Hl Er) as M. destruct (N.land _ _ =? 0).
      * left. repeat split; [exact Hl | exact Hw |]. apply M. reflexivity.
      * right. split; [reflexivity|]. intros (_ & _ & Hz). apply M in Hz. discriminate.
Qed.

Lemma from_raw_bytes_of_Inv b : Inv b -> from_raw_bytes (bf_bytes b) (bf_len b) = Ok b.
Proof.
  intros HI. destruct b as [bs n].
  destruct (from_raw_spec bs n (proj1 (proj2 HI))) as [[E _]|[_ HN]]; [exact E | contradiction].
Qed.
Lemma from_raw_intro bs n : wfb bs -> len bs = bytes_for_bit_len n ->
  (forall i, n <= i -> bit_at bs i = false) ->
  from_raw_bytes bs n = Ok {| bf_bytes := bs; bf_len := n |}.
Proof.
  intros Hw Hl Hz. apply (from_raw_bytes_of_Inv {| bf_bytes := bs; bf_len := n |}).
  repeat split; assumption.
Qed.
Lemma from_raw_bytes_Inv bs n b : wfb bs -> from_raw_bytes bs n = Ok b ->
  Inv b /\ bf_bytes b = bs /\ bf_len b = n.
Proof.
  intros Hw H. destruct (from_raw_spec bs n Hw) as [[E HI]|[E _]]; rewrite E in H; [|discriminate].
  injection H as <-. auto.
Qed.
Lemma from_raw_elim bs n b : wfb bs -> from_raw_bytes bs n = Ok b ->
  b = {| bf_bytes := bs; bf_len := n |} /\ len bs = bytes_for_bit_len n /\
  (forall i, n <= i -> bit_at bs i = false).
Proof.
  intros Hw H. destruct (from_raw_bytes_Inv bs n b Hw H) as ((Hl & _ & Hz) & <- & <-).
  destruct b. auto.
Qed.

Lemma set_all_spec bits : forall z i0, Inv z -> i0 + N.of_nat (length bits) <= bf_len z ->
  exists b, set_all z i0 bits = Ok b /\ Inv b /\ bf_len b = bf_len z /\
    forall j, bit_at (bf_bytes b) j =
      if (i0 <=? j) && (j <? i0 + N.of_nat (length bits))
      then nth (N.to_nat (j - i0)) bits false else bit_at (bf_bytes z) j.
Proof.
  induction bits as [|x r IH]; intros z i0 HI H; cbn [set_all length] in *.
  - exists z. repeat split; try apply HI. intros j.
    replace ((i0 <=? j) && (j <? i0 + N.of_nat 0)) with false by lia. reflexivity.
  - destruct (bf_set_ok z i0 x HI ltac:(lia)) as (z' & -> & HI' & Hl' & Hb').
    destruct (IH z' (i0 + 1) HI' ltac:(lia)) as (b & Hb1 & Hb2 & Hb3 & Hb4).
    exists b. cbn [bind]. split; [exact Hb1|]. split; [exact Hb2|]. split; [congruence|].
    intros j. rewrite Hb4, Hb'.
    replace ((i0 <=? j) && (j <? i0 + N.of_nat (S (length r))))
      with ((j =? i0) || (i0 + 1 <=? j) && (j <? i0 + 1 + N.of_nat (length r))) by lia.
    destruct (N.eqb_spec j i0) as [->|Hne]; cbn [orb].
    + replace ((i0 + 1 <=? i0) && _) with false by lia. rewrite N.sub_diag. reflexivity.
    + destruct (_ && _) eqn:E; [|reflexivity].
      replace (N.to_nat (j - i0)) with (S (N.to_nat (j - (i0 + 1)))) by lia. reflexivity.
Qed.

Definition zero_bf (n : N) : bf := {| bf_bytes := zeros (bytes_for_bit_len n); bf_len := n |}.
Lemma Inv_zero n : Inv (zero_bf n).
Proof.
  split; [|split]; cbn [zero_bf bf_bytes bf_len].
  - apply len_zeros.
  - apply wfb_zeros.
  - intros i _. apply bit_at_zeros.
Qed.

Lemma of_bits_spec n bits : n = N.of_nat (length bits) ->
  exists b, set_all (zero_bf n) 0 bits = Ok b /\ Inv b /\ bf_len b = n /\
            (forall j, bit_at (bf_bytes b) j = nth (N.to_nat j) bits false).
Proof.
  intros Hn. destruct (set_all_spec bits (zero_bf n) 0 (Inv_zero n)) as (b & H1 & H2 & H3 & H4).
  { cbn [zero_bf bf_len]. lia. }
  exists b. split; [exact H1|]. split; [exact H2|]. split; [exact H3|].
  intros j. rewrite H4. destruct ((0 <=? j) && (j <? 0 + N.of_nat (length bits))) eqn:E.
  - replace (j - 0) with j by lia. reflexivity.
  - cbn [zero_bf bf_bytes]. rewrite bit_at_zeros, nth_overflow by lia. reflexivity.
Qed.

Lemma bf_iter_eq b bits : Inv b -> bf_len b = N.of_nat (length bits) ->
  (forall j, j < bf_len b -> bit_at (bf_bytes b) j = nth (N.to_nat j) bits false) ->
  bf_iter b = bits.
Proof.
  intros HI Hl H. rewrite bf_iter_spec by auto. rewrite Hl, Nat2N.id.
  apply nth_ext with (d := false) (d' := false).
  - rewrite map_length, seq_length. reflexivity.
  - intros k Hk. rewrite map_length, seq_length in Hk. apply Nat.ltb_lt in Hk as Hk'.
    rewrite nth_tabulate, Hk', H by lia. rewrite Nat2N.id. reflexivity.
Qed.

Lemma rebuild b : Inv b -> set_all (zero_bf (bf_len b)) 0 (bf_iter b) = Ok b.
Proof.
  intros HI.
  destruct (of_bits_spec (bf_len b) (bf_iter b)) as (b' & H1 & H2 & H3 & H4).
  { rewrite bf_iter_length; auto. }
  rewrite H1. f_equal. apply Inv_ext; auto. intros i Hi.
  rewrite H4, nth_bf_iter by auto. rewrite N2Nat.id. reflexivity.
Qed.

Lemma spec_pack_S bits k :
  spec_pack bits (S k) = spec_pack bits k ++ [spec_byte_of_bits bits k].
Proof. unfold spec_pack. rewrite seq_S, map_app. reflexivity. Qed.

Lemma pack_of_bytes bits bs : wfb bs ->
  (forall i, i < 8 * len bs -> bit_at bs i = nth (N.to_nat i) bits false) ->
  bs = spec_pack bits (length bs).
Proof.
  induction bs as [|x pre IH] using rev_ind; intros Hw H; [reflexivity|].
  apply wfb_app in Hw. destruct Hw as [Hpre Hx]. inversion Hx as [|? ? Hx256 _]; subst.
  rewrite app_length. cbn [length]. rewrite Nat.add_1_r, spec_pack_S.
  rewrite len_app, len_cons, len_nil in H. f_equal.
  - apply IH; auto. intros i Hi. rewrite <- H, bit_at_app_l by lia. reflexivity.
  - f_equal. rewrite (byte_decomp x Hx256).
    change (spec_byte_of_bits bits (length pre))
      with (byte_of_bits (fun i => nth (8 * length pre + i)%nat bits false)).
    apply byte_of_bits_ext. intros i Hi.
    rewrite <- (bit_at_lo x []), <- (bit_at_app_r pre), H by lia. f_equal. unfold len. lia.
Qed.

Lemma bv_of_bits_ok n bits : N.of_nat (length bits) = n ->
  exists b, bv_of_bits n bits = Ok b /\ Inv b /\ bf_len b = n /\
            (forall j, bit_at (bf_bytes b) j = nth (N.to_nat j) bits false).
Proof.
  intros H. unfold bv_of_bits, bf_of_bits_from.
  replace (N.of_nat (length bits) =? n) with true by lia.
  change (bv_new n) with (zero_bf n). apply of_bits_spec. lia.
Qed.

Lemma bd_of_bits_ok bits : 0 < N.of_nat (length bits) -> N.of_nat (length bits) mod 8 = 0 ->
  exists b, bd_of_bits bits = Ok b /\ Inv b /\ bf_len b = N.of_nat (length bits) /\
            (forall j, bit_at (bf_bytes b) j = nth (N.to_nat j) bits false).
Proof.
  intros H0 H8. unfold bd_of_bits, bd_new, bf_of_bits_from.
  replace (N.of_nat (length bits) =? 0) with false by lia.
  replace (negb (N.of_nat (length bits) mod 8 =? 0)) with false by lia. cbn [bind].
  apply (of_bits_spec (N.of_nat (length bits)) bits). reflexivity.
Qed.
Lemma bl_of_bits_ok n bits : N.of_nat (length bits) <= n ->
  exists b, bl_of_bits n bits = Ok b /\ Inv b /\ bf_len b = N.of_nat (length bits) /\
            (forall j, bit_at (bf_bytes b) j = nth (N.to_nat j) bits false).
Proof.
  intros H. unfold bl_of_bits, bl_with_capacity, bf_of_bits_from.
  replace (N.of_nat (length bits) <=? n) with true by lia. cbn [bind].
  apply (of_bits_spec (N.of_nat (length bits)) bits). reflexivity.
Qed.

Lemma nil_or_not (bs : bytes) : bs = [] \/ bs <> [].
Proof. destruct bs; [left|right]; congruence. Qed.
Lemma len_pos bs : bs <> [] -> 1 <= len bs.
Proof. destruct bs; [congruence|]. rewrite len_cons. lia. Qed.
Lemma bd_decode_eq bs : bs <> [] -> bd_decode bs = from_raw_bytes bs (len bs * 8).
Proof. destruct bs; [congruence|reflexivity]. Qed.

Lemma bitvector_no_panic n bs : bv_from_bytes n bs <> Panic.
Proof. apply from_raw_bytes_no_panic. Qed.
Lemma bitdyn_no_panic bs : bd_decode bs <> Panic.
Proof. destruct bs; [discriminate|]. apply from_raw_bytes_no_panic. Qed.

Lemma len_resize bs n : len (resize_bytes bs n) = n.
Proof.
  unfold resize_bytes. destruct (n <=? len bs) eqn:E.
  - apply len_take. lia.
  - rewrite len_app, len_zeros. lia.
Qed.
Lemma wfb_resize bs n : wfb bs -> wfb (resize_bytes bs n).
Proof.
  intros H. unfold resize_bytes. destruct (n <=? len bs).
  - apply wfb_take, H.
  - apply wfb_app. split; [exact H | apply wfb_zeros].
Qed.
Lemma bit_at_resize bs n i :
  bit_at (resize_bytes bs n) i = if i <? 8 * n then bit_at bs i else false.
Proof.
  unfold resize_bytes. destruct (n <=? len bs) eqn:E.
  - apply bit_at_take.
  - rewrite bit_at_app, bit_at_zeros. destruct (i <? 8 * len bs) eqn:E1.
    + replace (i <? 8 * n) with true by lia. reflexivity.
    + rewrite bit_at_out by lia. destruct (i <? 8 * n); reflexivity.
Qed.

Lemma Inv_resize bs l : wfb bs -> (forall i, l <= i -> bit_at bs i = false) ->
  Inv {| bf_bytes := resize_bytes bs (bytes_for_bit_len l); bf_len := l |}.
Proof.
  intros Hw Hz. split; [apply len_resize|]. split; [apply wfb_resize, Hw|]. cbn [bf_bytes bf_len].
  intros i Hi. rewrite bit_at_resize, Hz by exact Hi. destruct (i <? _); reflexivity.
Qed.

Lemma bl_into_bytes_spec b : Inv b ->
  exists b2, bl_into_bytes b = Ok (bf_bytes b2) /\ Inv b2 /\ bf_len b2 = bf_len b + 1 /\
    (forall j, bit_at (bf_bytes b2) j = if j =? bf_len b then true else bit_at (bf_bytes b) j).
Proof.
  intros HI. pose proof HI as (Hlen & Hw & Hz).
  set (bs := resize_bytes (bf_bytes b) (bytes_for_bit_len (bf_len b + 1))).
  set (b1 := {| bf_bytes := bs; bf_len := bf_len b + 1 |}).
  assert (HI1 : Inv b1) by (apply Inv_resize; [exact Hw | intros i Hi; apply Hz; lia]).
  pose proof (from_raw_bytes_of_Inv b1 HI1) as Hraw. cbn [b1 bf_bytes bf_len] in Hraw.
  destruct (bf_set_ok b1 (bf_len b) true HI1) as (b2 & Hs & HI2 & Hl2 & Hb2).
  { cbn [b1 bf_len]. lia. }
  exists b2. split; [|split; [exact HI2|split; [exact Hl2|]]].
  - unfold bl_into_bytes. cbv zeta. fold bs. rewrite Hraw. fold b1. rewrite Hs. reflexivity.
  - intros j. rewrite Hb2. cbn [b1 bf_bytes]. unfold bs. rewrite bit_at_resize.
    destruct (j =? bf_len b) eqn:E; [reflexivity|].
    destruct (j <? 8 * bytes_for_bit_len (bf_len b + 1)) eqn:E1; [reflexivity|].
    rewrite Hz; [reflexivity|]. pose proof (bfbl_spec (bf_len b + 1)). lia.
Qed.

(* into_bytes never reaches its unreachable!/expect sites *)
Lemma bl_into_bytes_ok b : Inv b -> exists bs, bl_into_bytes b = Ok bs.
Proof. intros HI. destruct (bl_into_bytes_spec b HI) as (b2 & H & _). eauto. Qed.

(* Read from the end the loop needs no accumulator: the last byte decides unless it is zero. *)
Lemma hsb_go_snoc pre x i acc :
  hsb_go (pre ++ [x]) i acc =
  if 0 <? x then Some ((i + len pre) * 8 + N.log2 x) else hsb_go pre i acc.
Proof.
  revert i acc. induction pre as [|y r IH]; intros i acc; cbn [app hsb_go].
  - rewrite len_nil, N.add_0_r. reflexivity.
  - rewrite IH, len_cons, (N.add_comm (len r)), N.add_assoc. reflexivity.
Qed.

Lemma bit_at_snoc0 pre j : bit_at (pre ++ [0]) j = bit_at pre j.
Proof.
  rewrite bit_at_app. destruct (N.ltb_spec j (8 * len pre)) as [H|H]; [reflexivity|].
  rewrite (bit_at_out pre) by exact H. apply (bit_at_zeros 1).
Qed.

(* [l] is the highest position of [bs] that holds a bit *)
Definition top_bit (bs : bytes) (l : N) : Prop :=
  bit_at bs l = true /\ forall j, l < j -> bit_at bs j = false.

Lemma top_bit_unique bs l l' : top_bit bs l -> top_bit bs l' -> l = l'.
Proof.
  intros [Ht Ha] [Ht' Ha']. destruct (N.lt_trichotomy l l') as [H|[H|H]]; [|exact H|].
  - rewrite Ha in Ht' by exact H. discriminate.
  - rewrite Ha' in Ht by exact H. discriminate.
Qed.
Lemma top_bit_lt bs l : top_bit bs l -> l < 8 * len bs.
Proof.
  intros [Ht _]. apply N.nle_gt. intros H. rewrite bit_at_out in Ht by exact H. discriminate.
Qed.
Lemma top_bit_snoc pre x : x < 256 -> 0 < x -> top_bit (pre ++ [x]) (8 * len pre + N.log2 x).
Proof.
  intros Hx H0. destruct (byte_log2 x Hx H0) as (Hlg & Htb & Hab). split.
  - rewrite bit_at_app_r, bit_at_lo by exact Hlg. exact Htb.
  - intros j Hj. replace j with (8 * len pre + (j - 8 * len pre)) by lia.
    rewrite bit_at_app_r, bit_at_cons. destruct (_ <? 8); [apply Hab; lia | reflexivity].
Qed.

Lemma hsb_spec bs n : wfb bs ->
  match highest_set_bit {| bf_bytes := bs; bf_len := n |} with
  | Some l => top_bit bs l
  | None => forall j, bit_at bs j = false
  end.
Proof.
  unfold highest_set_bit. cbn [bf_bytes].
  induction bs as [|x pre IH] using rev_ind; intros Hw; [intros j; reflexivity|].
  apply wfb_app in Hw. destruct Hw as [Hpre Hx]. inversion Hx as [|? ? Hx256 _]; subst.
  rewrite hsb_go_snoc. destruct (N.ltb_spec 0 x) as [H0|H0].
  - rewrite N.add_0_l, N.mul_comm. apply top_bit_snoc; assumption.
  - replace x with 0 by lia. specialize (IH Hpre). destruct (hsb_go pre 0 None) as [l|].
    + destruct IH as (Ht & Ha). split; [|intros j Hj]; rewrite bit_at_snoc0; auto.
    + intros j. rewrite bit_at_snoc0. apply IH.
Qed.
Lemma hsb_some bs n l : wfb bs -> highest_set_bit {| bf_bytes := bs; bf_len := n |} = Some l ->
  top_bit bs l.
Proof. intros Hw H. pose proof (hsb_spec bs n Hw) as S. rewrite H in S. exact S. Qed.
Lemma hsb_none bs n : wfb bs -> highest_set_bit {| bf_bytes := bs; bf_len := n |} = None ->
  forall j, bit_at bs j = false.
Proof. intros Hw H. pose proof (hsb_spec bs n Hw) as S. rewrite H in S. exact S. Qed.
Lemma hsb_unique bs n l : wfb bs -> top_bit bs l ->
  highest_set_bit {| bf_bytes := bs; bf_len := n |} = Some l.
Proof.
  intros Hw Ht. destruct (highest_set_bit _) as [l'|] eqn:E.
  - f_equal. exact (top_bit_unique bs l' l (hsb_some bs n l' Hw E) Ht).
  - destruct Ht as [Ht _]. rewrite (hsb_none bs n Hw E) in Ht. discriminate.
Qed.

Lemma from_raw_full bs : wfb bs -> bs <> [] ->
  from_raw_bytes bs (len bs * 8) = Ok {| bf_bytes := bs; bf_len := len bs * 8 |}.
Proof.
  intros Hw Hne. pose proof (len_pos bs Hne) as Hp. apply from_raw_intro; auto.
  - pose proof (bfbl_spec (len bs * 8)). lia.
  - intros i Hi. apply bit_at_out. lia.
Qed.
Lemma Inv_full bs : wfb bs -> bs <> [] -> Inv {| bf_bytes := bs; bf_len := len bs * 8 |}.
Proof.
  intros Hw Hne. apply (from_raw_bytes_Inv bs (len bs * 8)); auto. apply from_raw_full; auto.
Qed.

Lemma bl_from_bytes_intro n bs l : wfb bs -> len bs = l / 8 + 1 -> l <= n -> top_bit bs l ->
  exists b, bl_from_bytes n bs = Ok b /\ Inv b /\ bf_len b = l /\
            (forall j, j < l -> bit_at (bf_bytes b) j = bit_at bs j).
Proof.
  intros Hw Hlen Hln [Ht Ha].
  assert (Hne : bs <> []). { intros ->. rewrite len_nil in Hlen. lia. }
  destruct (bf_set_ok _ l false (Inv_full bs Hw Hne)) as (c & Hs & (Hclen & Hcw & _) & Hlc & Hbc).
  { cbn [bf_len]. lia. }
  cbn [bf_bytes bf_len] in Hlc, Hbc. rewrite Hlc in Hclen.
  (* the top bit cleared, what is left fits the minimal number of bytes for [l] bits *)
  set (b := {| bf_bytes := resize_bytes (bf_bytes c) (bytes_for_bit_len l); bf_len := l |}).
  assert (HI : Inv b).
  { apply Inv_resize; [exact Hcw|]. intros i Hi. rewrite Hbc.
    destruct (N.eqb_spec i l); [reflexivity | apply Ha; lia]. }
  exists b. split; [|split; [exact HI | split; [reflexivity|]]].
  - unfold bl_from_bytes. cbv zeta. rewrite from_raw_full by auto. cbn [bind].
    rewrite (hsb_unique bs (len bs * 8) l Hw (conj Ht Ha)). cbn [ok_or bind].
    replace (negb (l / 8 + 1 =? len bs)) with false by lia.
    replace (l <=? n) with true by lia. rewrite Hs.
    replace (take _ _) with (bf_bytes b); [exact (from_raw_bytes_of_Inv b HI)|].
    cbn [b bf_bytes]. unfold resize_bytes. replace (_ <=? _) with true; [reflexivity|].
    clear - Hclen Hlen. unfold bytes_for_bit_len in *. lia.
  - intros j Hj. cbn [b bf_bytes]. rewrite bit_at_resize, Hbc.
    replace (j <? 8 * bytes_for_bit_len l) with true by (pose proof (bfbl_spec l); lia).
    replace (j =? l) with false by lia. reflexivity.
Qed.

Lemma bl_from_bytes_cases n bs : wfb bs ->
  bl_from_bytes n bs = Err \/ exists l, len bs = l / 8 + 1 /\ l <= n /\ top_bit bs l.
Proof.
  intros Hw. destruct (nil_or_not bs) as [->|Hne]; [left; reflexivity|].
  unfold bl_from_bytes. cbv zeta. rewrite from_raw_full by auto. cbn [bind].
  destruct (highest_set_bit _) as [l|] eqn:Eh; cbn [ok_or bind]; [|left; reflexivity].
  destruct (negb (l / 8 + 1 =? len bs)) eqn:E1; [left; reflexivity|].
  destruct (l <=? n) eqn:E2; [|left; reflexivity].
  right. exists l. split; [lia|]. split; [lia|]. exact (hsb_some bs _ l Hw Eh).
Qed.

Lemma bl_from_bytes_elim n bs b : wfb bs -> bl_from_bytes n bs = Ok b ->
  exists l, len bs = l / 8 + 1 /\ l <= n /\ top_bit bs l /\
            Inv b /\ bf_len b = l /\ (forall j, j < l -> bit_at (bf_bytes b) j = bit_at bs j).
Proof.
  intros Hw H. destruct (bl_from_bytes_cases n bs Hw) as [E|(l & Hlen & Hln & Ht)].
  - rewrite E in H. discriminate.
  - destruct (bl_from_bytes_intro n bs l Hw Hlen Hln Ht) as (b' & Hb' & HI').
    rewrite Hb' in H. injection H as <-. exists l. auto.
Qed.

Lemma bitlist_no_panic n bs : wfb bs -> bl_from_bytes n bs <> Panic.
Proof.
  intros Hw. destruct (bl_from_bytes_cases n bs Hw) as [->|(l & Hlen & Hln & Ht)]; [discriminate|].
  destruct (bl_from_bytes_intro n bs l Hw Hlen Hln Ht) as (b & -> & _). discriminate.
Qed.

