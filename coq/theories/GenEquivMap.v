(** * GenEquivMap: the [BTreeMap<K, V>] impls (rustc's expansion of the crate), which go through the tuple impls
    for their entries, are the model's [TMap] codec -- for every key and value type expression. *)
From SSZ Require Import Base RustSem Offsets Encoder Builder Types Codec CodecUnfold BaseFacts OffsetsFacts AppendFacts MetaFacts
     RoundTrip Strict Generated GenEquiv GenEquivDec GenEquivEnc GenProps GeneratedDerive GenEquivDerive GenEquivDerive2 GenEquivTuple.
From Coq Require Import ZArith ZifyN ZifyBool ZifyNat Lia.
Open Scope N_scope.

Definition pair_val (p : val * val) : val := VCont [fst p; snd p].
Definition TEntry (k v : ty) : ty := TContainer false [k; v].

Lemma fold_m_ext_in {S X} (F G : S -> X -> outcome S) l : forall s,
  (forall s x, In x l -> F s x = G s x) -> fold_m F l s = fold_m G l s.
Proof.
  induction l as [|x r IH]; intros s H; cbn [fold_m]; [reflexivity|].
  rewrite (H s x (or_introl eq_refl)). destruct (G s x); cbn [bind]; try reflexivity.
  apply IH. intros s0 y Hy. apply H. right. exact Hy.
Qed.

Lemma sequence_ssz_append_ext_in {A} f l (F G : A -> bytes -> outcome bytes) items buf :
  (forall x, In x items -> forall b, F x b = G x b) ->
  Gen.sequence_ssz_append f l F items buf = Gen.sequence_ssz_append f l G items buf.
Proof.
  intro H. unfold Gen.sequence_ssz_append. destruct f.
  - rewrite (fold_m_ext_in _ (fun b x => do b' <- G x b; Ok b') items buf); [reflexivity|].
    intros b x Hx. rewrite (H x Hx). reflexivity.
  - destruct (usize_mul _ _) as [n| |]; cbn [bind]; try reflexivity.
    destruct (Gen.encoder_container buf n) as [e0| |]; cbn [bind]; try reflexivity.
    rewrite (fold_m_ext_in _ (fun e x => do e' <- Gen.encoder_append_item false G e x; Ok e') items e0); [reflexivity|].
    intros e x Hx. rewrite (encoder_append_item_ext false F G e x x (H x Hx)). reflexivity.
Qed.

Lemma sequence_ssz_bytes_len_ext_in {A} f l (F G : A -> outcome N) items :
  (forall x, In x items -> F x = G x) ->
  Gen.sequence_ssz_bytes_len f l F items = Gen.sequence_ssz_bytes_len f l G items.
Proof.
  intro H. unfold Gen.sequence_ssz_bytes_len. destruct f; [reflexivity|].
  rewrite (mapM_ext_in (fun item => F item) (fun item => G item) items H). reflexivity.
Qed.

Lemma Forall2_map_both {A B C} (R : B -> C -> Prop) (f : A -> B) (g : A -> C) l :
  (forall x, R (f x) (g x)) -> Forall2 R (map f l) (map g l).
Proof. intro H. induction l; cbn [map]; constructor; auto. Qed.

Lemma entry_app_spec k v p b : entry_app k v (pair_val p) b = b ++ enc (TEntry k v) (pair_val p).
Proof. rewrite (entry_app_tuple k v (pair_val p) b) by (exists (fst p), (snd p); reflexivity). apply append_spec. Qed.

Lemma entry_is_fixed k v : e_is_fixed (TEntry k v) = e_is_fixed k && e_is_fixed v.
Proof. unfold TEntry. rewrite e_is_fixed_container. cbn [forallb]. now rewrite andb_true_r. Qed.

Theorem gen_btreemap_ssz_append k v (es : list (val * val)) buf :
  e_fixed_len k + e_fixed_len v <= usize_max ->
  (forall p, In p es -> e_fixed_len k + e_fixed_len v + len (enc k (fst p)) <= usize_max) ->
  (if e_is_fixed (TEntry k v) then e_fixed_len (TEntry k v) * llen es <= usize_max
   else llen es * 4 <= usize_max /\ fits_run (fun p => append (TEntry k v) (pair_val p)) (llen es * 4) [] es) ->
  GenD.btreemap_ssz_append (e_is_fixed k) (e_fixed_len k) (app_of k) (e_is_fixed v) (e_fixed_len v) (app_of v) es buf
  = Ok (append (TMap k v) (VList (map pair_val es)) buf).
Proof.
  intros HF Hit Hseq. unfold GenD.btreemap_ssz_append.
  destruct (gen_tuple2_metadata k v HF ltac:(rewrite <- !fixed_len_agree; exact HF)) as (M1 & M2 & _).
  rewrite M1, M2. cbn [bind]. fold (TEntry k v).
  rewrite (sequence_ssz_append_ext_in _ _ _ (fun p b => Ok (append (TEntry k v) (pair_val p) b))).
  2:{ intros [a c] Hin b. apply gen_tuple2_ssz_append. exact (Hit (a, c) Hin). }
  rewrite gen_sequence_ssz_append_eq by exact Hseq. cbn [bind]. f_equal.
  rewrite append_map, map_map, <- entry_is_fixed.
  (* the source ran the entries' own encoder, [append (TEntry k v)]; the model's [TMap] runs [entry_app k v], which is
     not the same function on values that are not pairs.  On [pair_val p] each of the two appends the entry's
     encoding, so both runs are [buf ++ seq_enc ..] of the same encodings. *)
  rewrite (seq_append_spec _ _ _ buf (Forall2_map_both _ _ _ es (fun p b => append_spec (TEntry k v) (pair_val p) b))).
  symmetry. apply (seq_append_spec _ _ _ buf (Forall2_map_both _ _ _ es (entry_app_spec k v))).
Qed.

Lemma entry_fixed_len k v :
  e_fixed_len (TEntry k v) = if e_is_fixed k && e_is_fixed v then e_fixed_len k + e_fixed_len v else BYTES_PER_LENGTH_OFFSET.
Proof.
  unfold TEntry. rewrite e_fixed_len_container. cbn [forallb map sumN]. rewrite andb_true_r, N.add_0_r. reflexivity.
Qed.

Lemma entry_bytes_len k v p :
  bytes_len (TEntry k v) (pair_val p) =
  if e_is_fixed k && e_is_fixed v then e_fixed_len (TEntry k v)
  else (if e_is_fixed k then e_fixed_len k else BYTES_PER_LENGTH_OFFSET + bytes_len k (fst p))
       + (if e_is_fixed v then e_fixed_len v else BYTES_PER_LENGTH_OFFSET + bytes_len v (snd p)).
Proof.
  unfold TEntry, pair_val. rewrite bytes_len_container. cbn [forallb combine map sumN fst snd]. rewrite andb_true_r.
  destruct (e_is_fixed k && e_is_fixed v) eqn:E.
  - fold (TEntry k v). rewrite entry_fixed_len, E. lia.
  - unfold field_len. lia.
Qed.

Theorem gen_btreemap_ssz_bytes_len k v (es : list (val * val)) :
  e_fixed_len k + e_fixed_len v <= usize_max ->
  (forall p, In p es -> field_len k (fst p) + field_len v (snd p) <= usize_max) ->
  (if e_is_fixed (TEntry k v) then e_fixed_len (TEntry k v) * llen es <= usize_max
   else sumN (map (fun p => bytes_len (TEntry k v) (pair_val p)) es) + 4 * llen es <= usize_max) ->
  GenD.btreemap_ssz_bytes_len (e_is_fixed k) (e_fixed_len k) (len_of k) (e_is_fixed v) (e_fixed_len v) (len_of v) es
  = Ok (bytes_len (TMap k v) (VList (map pair_val es))).
Proof.
  intros HF Hit Hseq. unfold GenD.btreemap_ssz_bytes_len.
  destruct (gen_tuple2_metadata k v HF ltac:(rewrite <- !fixed_len_agree; exact HF)) as (M1 & M2 & _).
  rewrite M1, M2. cbn [bind]. fold (TEntry k v).
  rewrite (sequence_ssz_bytes_len_ext_in _ _ _ (fun p => Ok (bytes_len (TEntry k v) (pair_val p)))).
  2:{ intros [a c] Hin. apply gen_tuple2_ssz_bytes_len; [exact HF | exact (Hit (a, c) Hin)]. }
  rewrite gen_sequence_ssz_bytes_len_eq by exact Hseq. f_equal.
  cbn [bytes_len]. rewrite entry_is_fixed, map_map.
  rewrite entry_fixed_len. f_equal. apply map_ext. intro p. rewrite entry_bytes_len, entry_fixed_len. unfold pair_val.
  destruct (e_is_fixed k && e_is_fixed v); reflexivity.
Qed.

Lemma lv_items_omap {A B} (d : bytes -> outcome A) (inj : A -> B) bs first num : forall fuel i off,
  lv_items (fun s => omap inj (d s)) bs first num fuel i off
  = (omap (map inj) (fst (lv_items d bs first num fuel i off)), snd (lv_items d bs first num fuel i off)).
Proof. exact (lv_items_collect _ d inj bs first num (fun s => eq_refl)). Qed.

Lemma decode_list_var_omap {A B} (d : bytes -> outcome A) (inj : A -> B) bs mx :
  decode_list_var (fun s => omap inj (d s)) CVec bs mx = omap (map inj) (decode_list_var d CVec bs mx).
Proof. exact (decode_list_var_collect _ d inj bs mx (fun s => eq_refl)). Qed.

Lemma ord_insert_key_is_insert_entry p (l : list (val * val)) :
  map pair_val (ord_insert_key val_cmp p l) = insert_entry true (pair_val p) (map pair_val l).
Proof.
  induction l as [|x r IH]; [reflexivity|]. cbn [ord_insert_key insert_entry map].
  change (entry_key true (pair_val p)) with (fst p). change (entry_key true (pair_val x)) with (fst x).
  destruct (val_cmp (fst p) (fst x)); cbn [map]; try reflexivity. rewrite IH. reflexivity.
Qed.

Lemma btreemap_from_iter_is_collect (l : list (val * val)) :
  map pair_val (btreemap_from_iter val_cmp l) = collect_entries true (map pair_val l).
Proof.
  unfold btreemap_from_iter, collect_entries.
  change (@nil val) with (map pair_val []). generalize (@nil (val * val)).
  induction l as [|x r IH]; intro acc; cbn [fold_left map]; [reflexivity|].
  rewrite IH, ord_insert_key_is_insert_entry. reflexivity.
Qed.

Theorem gen_btreemap_is_dec_TMap k v bs :
  len bs <= usize_max -> d_fixed_len k + d_fixed_len v <= usize_max ->
  omap (fun l => VList (map pair_val l))
    (GenD.btreemap_from_ssz_bytes (d_is_fixed k) (d_fixed_len k) (dec k) val_cmp (d_is_fixed v) (d_fixed_len v) (dec v) bs)
  = dec (TMap k v) bs.
Proof.
  intros Hl HF. rewrite dec_map_eq. unfold GenD.btreemap_from_ssz_bytes.
  destruct (gen_tuple2_metadata k v ltac:(rewrite !fixed_len_agree; exact HF) HF) as (_ & _ & M3 & M4).
  set (C := TContainer false [k; v]) in *.
  set (D := GenD.tuple2_from_ssz_bytes (d_is_fixed k) (d_fixed_len k) (dec k) (d_is_fixed v) (d_fixed_len v) (dec v)).
  rewrite (dec_seq_collect _ _ (dec C) D pair_val bs) by (intro s; symmetry; apply gen_tuple2_from_ssz_bytes).
  unfold dec_seq. rewrite if_llen_0, M3. destruct bs as [|b0 br]; [reflexivity|]. cbn [bind].
  destruct (d_is_fixed C).
  - rewrite M4. cbn [bind]. destruct (d_fixed_len C =? 0); [reflexivity|]. rewrite mapM_chunks_eq.
    destruct (mapM D _); cbn [omap]; rewrite ?btreemap_from_iter_is_collect; reflexivity.
  - rewrite decode_list_collect by exact Hl. unfold Gen.tfi_btreemap_try_from_iter.
    destruct (decode_list_var D CVec _ None); cbn [bind omap]; rewrite ?btreemap_from_iter_is_collect; reflexivity.
Qed.

(** C19 on the source-derived map decoder: the entry list is decoded as a list of 2-tuples, then collected
    (ascending keys, a later entry with an equal key replaces the earlier one) *)
Theorem Src_C19_map_decodes_by_collection k v bs :
  len bs <= usize_max -> d_fixed_len k + d_fixed_len v <= usize_max ->
  omap (fun l => VList (map pair_val l))
    (GenD.btreemap_from_ssz_bytes (d_is_fixed k) (d_fixed_len k) (dec k) val_cmp (d_is_fixed v) (d_fixed_len v) (dec v) bs) =
  match Gen.vec_from_ssz_bytes (d_is_fixed (TEntry k v)) (d_fixed_len (TEntry k v)) (dec (TEntry k v)) bs with
  | Ok es => Ok (VList (collect_entries true es))
  | Err => Err | Panic => Panic
  end.
Proof.
  intros Hl HF. rewrite gen_btreemap_is_dec_TMap by assumption.
  pose proof (gen_vec_is_dec_TList (TEntry k v) bs Hl) as E.
  rewrite Strict.dec_map_is_collect. unfold TEntry in *. rewrite <- E.
  destruct (Gen.vec_from_ssz_bytes _ _ _ bs); reflexivity.
Qed.

Example ex_btreemap :
  GenD.btreemap_from_ssz_bytes true 1 Gen.u8_from_ssz_bytes N.compare true 1 Gen.u8_from_ssz_bytes [3; 1; 1; 2; 3; 9; 2; 5]
  = Ok [(1, 2); (2, 5); (3, 9)].
Proof. vm_compute. reflexivity. Qed.

Print Assumptions gen_btreemap_ssz_append.
Print Assumptions gen_btreemap_ssz_bytes_len.
Print Assumptions gen_btreemap_is_dec_TMap.
Print Assumptions Src_C19_map_decodes_by_collection.
