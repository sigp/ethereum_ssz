(** * Encoding as entry lists, at every depth: a well-typed value of [t] encodes exactly as the same value read at
    [list_view t] (sets and maps are written as the lists of their entries, in their ascending order). *)
From SSZ Require Import Codec CodecUnfold AppendFacts SizeFacts ListView ListViewFacts.
From Coq Require Import List ZArith Lia Bool.
Import ListNotations.
Open Scope N_scope.

Lemma list_view_emeta t : e_is_fixed (list_view t) = e_is_fixed t /\ e_fixed_len (list_view t) = e_fixed_len t.
Proof. exact (list_view_meta t). Qed.

Definition EncView (t : ty) : Prop := forall v, has_ty t v = true -> enc t v = enc (list_view t) v.

Lemma cont_parts_view fs vs :
  Forall2 (fun f x => enc f x = enc (list_view f) x) fs vs -> cont_parts fs vs = cont_parts (map list_view fs) vs.
Proof.
  unfold cont_parts. induction 1 as [|f x fs vs Hx _ IH]; [reflexivity|].
  cbn [map combine fst snd]. destruct (list_view_emeta f) as [-> _]. now rewrite Hx, IH.
Qed.

Lemma sum_fixed_view fs : sumN (map e_fixed_len (map list_view fs)) = sumN (map e_fixed_len fs).
Proof. induction fs as [|f r IH]; cbn [map sumN]; [reflexivity|]. destruct (list_view_emeta f) as [_ ->]. now rewrite IH. Qed.

Theorem enc_by_entry_list t : EncView t.
Proof.
  unfold EncView. revert t. apply (typed_ind (fun t v => enc t v = enc (list_view t) v)); try reflexivity; cbn [list_view].
  - (* list *) intros t vs _ IH. rewrite !enc_list. destruct (list_view_emeta t) as [-> _]. now rewrite (map_ext_Forall _ _ IH).
  - (* set *) intros t vs _ _ IH. rewrite enc_set, enc_list. destruct (list_view_emeta t) as [-> _]. now rewrite (map_ext_Forall _ _ IH).
  - (* map *) intros k v es Hv IH. now rewrite (enc_map_typed _ _ _ Hv).
  - (* option *) intros t x _ IH. now rewrite !enc_option_some, IH.
  - (* container *) intros d fs vs _ IH. now rewrite !enc_container, sum_fixed_view, (cont_parts_view _ _ IH).
  - (* union *) intros ts i t x _ E _ IH. now rewrite !enc_union, nth_error_map, E, IH.
  - (* transparent enum *) intros ts i t x E _ IH. now rewrite !enc_trans, nth_error_map, E.
  - (* wrap *) intros t x _ IH. exact IH.
  - (* legacy *) intros t x _ IH. now rewrite !enc_legacy_some, IH.
Qed.
Print Assumptions enc_by_entry_list.
