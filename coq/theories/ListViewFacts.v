(** * Decoding by collection, at every depth: [dec t] is [dec (list_view t)] followed by [collect_rec t]
    (sets / maps nested anywhere are decoded as the lists of their entries and collected innermost first).
    The direct oracle for maps and sets relies on this when an entry itself holds a set or a map. *)
From SSZ Require Import BaseFacts Codec CodecUnfold RoundTrip ListView.
From Coq Require Import List ZArith Lia Bool.
Import ListNotations.
Open Scope N_scope.


(** ** the view keeps the size metadata: sets, maps and lists are all variable-size *)
Definition same_meta (t : ty) : Prop :=
  d_is_fixed (list_view t) = d_is_fixed t /\ d_fixed_len (list_view t) = d_fixed_len t.

Lemma regs_of_view fs : Forall same_meta fs -> regs_of (map list_view fs) = regs_of fs.
Proof.
  unfold regs_of. induction 1 as [|f r [Hf Hl] _ IH]; cbn [map]; [reflexivity|]. now rewrite Hf, Hl, IH.
Qed.

Lemma list_view_meta t : same_meta t.
Proof.
  induction t using ty_ind'; try (split; reflexivity).
  - unfold same_meta. cbn [list_view].
    now rewrite !d_is_fixed_container, !d_fixed_len_container, <- !regs_of_fst, <- !regs_of_snd, (regs_of_view fs H).
  - exact IHt.
Qed.

Lemma regs_of_list_view fs : regs_of (map list_view fs) = regs_of fs.
Proof. apply regs_of_view, Forall_forall. intros f _. apply list_view_meta. Qed.

Fixpoint collect_fields (fs : list ty) (vs : list val) : list val :=
  match fs, vs with
  | f :: fr, x :: xr => collect_rec f x :: collect_fields fr xr
  | _, _ => vs
  end.
Lemma collect_rec_container d fs vs : collect_rec (TContainer d fs) (VCont vs) = VCont (collect_fields fs vs).
Proof.
  reflexivity.
Qed.

Definition DecView (t : ty) : Prop := forall bs, dec t bs = omap (collect_rec t) (dec (list_view t) bs).

Lemma decode_all_collect fs : Forall DecView fs -> forall items,
  decode_all items (map dec fs) = omap (collect_fields fs) (decode_all items (map dec (map list_view fs))).
Proof.
  induction 1 as [|f r Hf _ IH]; intros items; cbn [map decode_all]; [reflexivity|].
  unfold decode_next. destruct items as [|s rest]; [reflexivity|].
  rewrite (Hf s). destruct (dec (list_view f) s) as [x| |]; cbn [omap bind fst snd]; try reflexivity.
  rewrite IH. destruct (decode_all rest (map dec (map list_view r))); reflexivity.
Qed.

Lemma split_dec_collect fs : Forall DecView fs -> forall bs,
  split_dec (map (fun f => (d_fixed_len f, dec f)) fs) bs
  = omap (collect_fields fs) (split_dec (map (fun f => (d_fixed_len f, dec f)) (map list_view fs)) bs).
Proof.
  induction 1 as [|f r Hf _ IH]; intros bs; cbn [map split_dec]; [reflexivity|].
  destruct (list_view_meta f) as [_ ->].
  destruct (split_at bs (d_fixed_len f)) as [[a b]| |]; cbn [bind fst snd omap]; try reflexivity.
  rewrite (Hf a). destruct (dec (list_view f) a) as [x| |]; cbn [omap bind]; try reflexivity.
  rewrite IH. destruct (split_dec _ b); reflexivity.
Qed.

Lemma collect_rec_union ts i x :
  collect_rec (TUnion ts) (VUnion i x) = VUnion i (match nth_error ts i with Some t => collect_rec t x | None => x end).
Proof. cbn [collect_rec]. f_equal. apply (pick_fix (fun t => collect_rec t x)). Qed.
Lemma collect_rec_trans ts i x :
  collect_rec (TTransEnum ts) (VUnion i x) = VUnion i (match nth_error ts i with Some t => collect_rec t x | None => x end).
Proof. cbn [collect_rec]. f_equal. apply (pick_fix (fun t => collect_rec t x)). Qed.

(** [ts] is the part of the variant list [all] that starts at index [idx]. *)
Lemma first_ok_collect all ts : Forall DecView ts -> forall bs idx,
  (forall k, nth_error ts k = nth_error all (idx + k)) ->
  first_ok (map dec ts) bs idx
  = omap (collect_rec (TTransEnum all)) (first_ok (map dec (map list_view ts)) bs idx).
Proof.
  induction 1 as [|t r Ht _ IH]; intros bs idx Hn; cbn [map first_ok]; [reflexivity|].
  rewrite (Ht bs). destruct (dec (list_view t) bs) as [x| |]; cbn [omap]; try reflexivity.
  - specialize (Hn 0%nat). rewrite Nat.add_0_r in Hn. now rewrite collect_rec_trans, <- Hn.
  - apply IH. intros k. specialize (Hn (S k)). now rewrite Nat.add_succ_r in Hn.
Qed.

Theorem dec_by_collection t : DecView t.
Proof.
  induction t using ty_ind'; intro bs; try (symmetry; apply omap_id).
  - (* list *)
    cbn [list_view dec]. destruct (list_view_meta t) as [-> ->].
    rewrite (dec_seq_collect _ _ (dec t) (dec (list_view t)) (collect_rec t) bs IHt).
    now rewrite !omap_omap.
  - (* set *)
    cbn [list_view dec]. destruct (list_view_meta t) as [-> ->].
    rewrite (dec_seq_collect _ _ (dec t) (dec (list_view t)) (collect_rec t) bs IHt).
    now rewrite !omap_omap.
  - (* map *)
    cbn [list_view]. rewrite dec_map_eq, dec_list_eq.
    destruct (list_view_meta (TContainer false [t1; t2])) as [E1 E2]. cbn [list_view map] in E1, E2. rewrite E1, E2.
    rewrite (dec_seq_collect _ _ (dec (TContainer false [t1; t2])) (dec (TContainer false [list_view t1; list_view t2]))
               (collect_entry (collect_rec t1) (collect_rec t2)) bs).
    + now rewrite !omap_omap.
    + intro s. rewrite !dec_container. cbn [andb]. unfold regs_of. cbn [map].
      destruct (list_view_meta t1) as [-> ->]. destruct (list_view_meta t2) as [-> ->].
      destruct (builder_build _ s) as [items| |]; cbn [bind omap]; try reflexivity.
      cbn [decode_all]. unfold decode_next. destruct items as [|s1 rest]; [reflexivity|].
      rewrite (IHt1 s1). destruct (dec (list_view t1) s1) as [x| |]; cbn [omap bind fst snd]; try reflexivity.
      destruct rest as [|s2 rest']; [reflexivity|].
      rewrite (IHt2 s2). destruct (dec (list_view t2) s2) as [y| |]; cbn [omap bind fst snd]; reflexivity.
  - (* option *)
    cbn [list_view dec]. destruct (split_union_bytes bs) as [[sel body]| |]; cbn [bind omap]; try reflexivity.
    destruct (sel =? 0); [destruct body; reflexivity|]. destruct (sel =? 1); [|reflexivity].
    now rewrite (IHt body), !omap_omap.
  - (* container *)
    cbn [list_view]. rewrite !dec_container, <- !regs_of_fst, <- !regs_of_snd, regs_of_list_view.
    destruct (d && forallb fst (regs_of fs)).
    + destruct (negb (len bs =? sumN (map snd (regs_of fs)))); [reflexivity|].
      now rewrite (split_dec_collect fs H bs), !omap_omap.
    + destruct (builder_build (regs_of fs) bs) as [items| |]; cbn [bind omap]; try reflexivity.
      now rewrite (decode_all_collect fs H items), !omap_omap.
  - (* union *)
    cbn [list_view]. rewrite !dec_union.
    destruct (split_union_bytes bs) as [[sel body]| |]; cbn [bind omap fst snd]; try reflexivity.
    rewrite nth_error_map. destruct (nth_error vs (N.to_nat sel)) as [t|] eqn:E; [|reflexivity]. cbn [option_map].
    rewrite Forall_forall in H. rewrite (H t (nth_error_In _ _ E) body), !omap_omap.
    destruct (dec (list_view t) body); cbn [omap]; try reflexivity. now rewrite collect_rec_union, E.
  - (* transparent enum *)
    cbn [list_view]. rewrite !dec_trans. exact (first_ok_collect vs vs H bs 0 (fun k => eq_refl)).
  - (* wrap *) cbn [list_view dec collect_rec]. apply IHt.
  - (* legacy option *)
    cbn [list_view dec]. destruct (len bs <? BYTES_PER_LENGTH_OFFSET); [reflexivity|].
    destruct (split_at bs BYTES_PER_LENGTH_OFFSET) as [[a b]| |]; cbn [bind omap fst snd]; try reflexivity.
    destruct (read_offset a) as [index| |]; cbn [bind omap]; try reflexivity.
    destruct (index =? 0); [destruct b; reflexivity|]. destruct (index =? 1); [|reflexivity].
    now rewrite (IHt b), !omap_omap.
Qed.
Print Assumptions dec_by_collection.
