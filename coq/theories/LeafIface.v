(** * The facts about bitfield leaf types that the generic codec theorems use.

    They are proved in [LeafProof.v], from [BitfieldOpsFacts.v], which also builds the record; the generic
    theorems take the record as a premise and the property files instantiate it, so nothing
    is assumed in the end. *)
From SSZ Require Import Base Bitfield Types Codec Spec.
Open Scope N_scope.

Record LeafFacts : Prop := {
  lf_bv_rt : forall n bits, N.of_nat (length bits) = n ->
    exists b, bv_from_bytes n (bitvector_bytes n bits) = Ok b /\ bf_iter b = bits;
  lf_bv_canon : forall n bs b, wfb bs -> bv_from_bytes n bs = Ok b ->
    bitvector_bytes n (bf_iter b) = bs /\ N.of_nat (length (bf_iter b)) = n;
  lf_bv_no_panic : forall n bs, bv_from_bytes n bs <> Panic;
  lf_bv_spec : forall n bits, N.of_nat (length bits) = n -> bitvector_bytes n bits = spec_bitvector bits;
  lf_bv_len : forall n bits, N.of_nat (length bits) = n -> len (bitvector_bytes n bits) = bytes_for_bit_len n;
  lf_bv_wfb : forall n bits, wfb (bitvector_bytes n bits);
  lf_bl_rt : forall n bits, N.of_nat (length bits) <= n ->
    exists b, bl_from_bytes n (bitlist_bytes n bits) = Ok b /\ bf_iter b = bits;
  lf_bl_canon : forall n bs b, wfb bs -> bl_from_bytes n bs = Ok b ->
    bitlist_bytes n (bf_iter b) = bs /\ N.of_nat (length (bf_iter b)) <= n;
  lf_bl_no_panic : forall n bs, wfb bs -> bl_from_bytes n bs <> Panic;
  lf_bl_spec : forall n bits, N.of_nat (length bits) <= n -> bitlist_bytes n bits = spec_bitlist bits;
  lf_bl_wfb : forall n bits, wfb (bitlist_bytes n bits);
  lf_bd_rt : forall bits, (0 < length bits)%nat -> N.of_nat (length bits) mod 8 = 0 ->
    exists b, bd_decode (bitdyn_bytes bits) = Ok b /\ bf_iter b = bits;
  lf_bd_canon : forall bs b, wfb bs -> bd_decode bs = Ok b ->
    bitdyn_bytes (bf_iter b) = bs /\ (0 < length (bf_iter b))%nat /\ N.of_nat (length (bf_iter b)) mod 8 = 0;
  lf_bd_no_panic : forall bs, bd_decode bs <> Panic;
  lf_bd_spec : forall bits, (0 < length bits)%nat -> N.of_nat (length bits) mod 8 = 0 ->
    bitdyn_bytes bits = spec_pack bits (Nat.div (length bits) 8);
  lf_bd_wfb : forall bits, wfb (bitdyn_bytes bits)
}.
