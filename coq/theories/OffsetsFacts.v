(** * Facts about the offset word codec, [sanitize_offset] and the union selector helpers. *)
From SSZ Require Import Base BaseFacts Offsets.
From Coq Require Import ZArith ZifyN ZifyNat ZifyBool.
Open Scope N_scope.

Lemma pow256_4 : 256 ^ N.of_nat 4 = 4294967296. Proof. reflexivity. Qed.

Lemma encode_length_length n : length (encode_length n) = 4%nat.
Proof. apply le_bytes_length. Qed.
Lemma encode_length_len n : len (encode_length n) = 4.
Proof. unfold len. rewrite encode_length_length. reflexivity. Qed.
Lemma wfb_encode_length n : wfb (encode_length n).
Proof. apply wfb_le_bytes. Qed.

Lemma le_val_encode_length x : x < 4294967296 -> le_val (encode_length x) = x.
Proof.
  intros Hx. unfold encode_length. rewrite N.mod_small by exact Hx.
  apply le_val_le_bytes. rewrite pow256_4. exact Hx.
Qed.

Lemma decode_offset_encode_length x :
  x < 4294967296 -> decode_offset (encode_length x) = Ok x.
Proof.
  intros Hx. unfold decode_offset. rewrite encode_length_len, le_val_encode_length by exact Hx.
  reflexivity.
Qed.

Lemma get_range_0_4_exact (w : bytes) : length w = 4%nat -> get_range w 0 4 = Some w.
Proof.
  intros H. destruct w as [|a [|b [|c [|d [|e w]]]]]; try discriminate. reflexivity.
Qed.

Lemma read_offset_eq bs :
  read_offset bs = if 4 <=? len bs then Ok (le_val (take 4 bs)) else Err.
Proof.
  unfold read_offset, get_range. change (0 <=? 4) with true. cbn [andb].
  destruct (4 <=? len bs) eqn:E; [|reflexivity]. cbn [ok_or bind]. unfold decode_offset.
  change (4 - 0) with 4. rewrite drop_0, len_take by lia. reflexivity.
Qed.

Lemma read_offset_short bs : len bs < 4 -> read_offset bs = Err.
Proof. intros H. rewrite read_offset_eq. replace (4 <=? len bs) with false by lia. reflexivity. Qed.

Lemma read_offset_long bs : 4 <= len bs -> read_offset bs = Ok (le_val (firstn 4 bs)).
Proof. intros H. rewrite read_offset_eq. replace (4 <=? len bs) with true by lia. reflexivity. Qed.

Lemma read_offset_ok bs x :
  read_offset bs = Ok x ->
  4 <= len bs /\ x = le_val (firstn 4 bs).
Proof.
  rewrite read_offset_eq. destruct (4 <=? len bs) eqn:E; [|discriminate].
  intros [= <-]. split; [lia|reflexivity].
Qed.

Lemma read_offset_not_panic bs : read_offset bs <> Panic.
Proof. rewrite read_offset_eq. destruct (4 <=? len bs); discriminate. Qed.

Lemma read_offset_app (w rest : bytes) :
  length w = 4%nat -> read_offset (w ++ rest) = Ok (le_val w).
Proof.
  intros H. assert (len w = 4) as Hl by (unfold len; rewrite H; reflexivity).
  rewrite read_offset_eq, len_app, Hl. replace (4 <=? 4 + len rest) with true by lia.
  rewrite <- Hl, take_app_exact. reflexivity.
Qed.

Lemma read_offset_encode_length x rest :
  x < 4294967296 -> read_offset (encode_length x ++ rest) = Ok x.
Proof.
  intros Hx. rewrite read_offset_app, le_val_encode_length by (exact Hx || apply encode_length_length).
  reflexivity.
Qed.

Lemma read_offset_bound bs x : wfb bs -> read_offset bs = Ok x -> x < 4294967296.
Proof.
  intros Hw H. apply read_offset_ok in H as [Hl ->].
  pose proof (le_val_bound (firstn 4 bs) (wfb_firstn 4 bs Hw)) as B.
  rewrite firstn_length in B. unfold len in Hl.
  replace (Nat.min 4 (length bs)) with 4%nat in B by lia. rewrite pow256_4 in B. exact B.
Qed.

(** The word codec is an exact little-endian bijection on [0, 2^32). *)
Lemma encode_length_closed_form x :
  x < 4294967296 ->
  encode_length x = [x mod 256; (x / 256) mod 256; (x / 65536) mod 256; x / 16777216].
Proof.
  intros Hx. unfold encode_length. rewrite N.mod_small by exact Hx.
  cbn [le_bytes]. rewrite !N.div_div by lia.
  change (256 * 256) with 65536. change (65536 * 256) with 16777216.
  rewrite (N.mod_small (x / 16777216) 256); [reflexivity|].
  apply N.div_lt_upper_bound; lia.
Qed.

Lemma encode_length_le_val (w : bytes) :
  length w = 4%nat -> wfb w -> encode_length (le_val w) = w /\ le_val w < 4294967296.
Proof.
  intros Hl Hw. pose proof (le_val_bound w Hw) as B. rewrite Hl, pow256_4 in B.
  split; [|exact B]. unfold encode_length. rewrite N.mod_small by exact B.
  rewrite <- Hl. apply le_bytes_le_val. exact Hw.
Qed.

Lemma encode_length_inj a b :
  a < 4294967296 -> b < 4294967296 -> encode_length a = encode_length b -> a = b.
Proof.
  intros Ha Hb H.
  pose proof (decode_offset_encode_length a Ha) as Da.
  rewrite H, (decode_offset_encode_length b Hb) in Da. congruence.
Qed.

Lemma guard_ok {A} (c : bool) (x : outcome A) r :
  (if c then Err else x) = Ok r <-> c = false /\ x = Ok r.
Proof. destruct c; intuition discriminate. Qed.

(** The four refusals, read positively: the offset is inside the input, not before the previous
    one, not inside the fixed portion, and the first one is exactly the end of the fixed portion. *)
Lemma sanitize_offset_ok off prev nb nf r :
  sanitize_offset off prev nb nf = Ok r <->
  r = off /\ off <= nb /\
  match prev with Some p => p <= off | None => True end /\
  match nf with Some f => f <= off /\ (prev = None -> off = f) | None => True end.
Proof.
  unfold sanitize_offset. rewrite !guard_ok.
  destruct nf as [f|], prev as [p|]; cbn [is_some_and is_none andb];
    (split; [intros (? & ? & ? & ? & [= <-])|intros (-> & ? & ? & ?)]); intuition (discriminate || lia).
Qed.

Lemma sanitize_offset_first first nb r :
  sanitize_offset first None nb (Some first) = Ok r <-> r = first /\ first <= nb.
Proof. rewrite sanitize_offset_ok. intuition lia. Qed.

Lemma sanitize_offset_next next off nb first r :
  sanitize_offset next (Some off) nb (Some first) = Ok r <->
  r = next /\ first <= next /\ next <= nb /\ off <= next.
Proof. rewrite sanitize_offset_ok. intuition discriminate. Qed.

Lemma sanitize_offset_not_panic off prev nb nf : sanitize_offset off prev nb nf <> Panic.
Proof.
  unfold sanitize_offset.
  repeat match goal with |- context [if ?c then _ else _] => destruct c end; discriminate.
Qed.

Lemma split_union_bytes_spec bs :
  split_union_bytes bs =
  match bs with
  | [] => Err
  | s :: body => if s <=? 127 then Ok (s, body) else Err
  end.
Proof.
  destruct bs as [|s body]; [reflexivity|].
  unfold split_union_bytes, union_selector_new, MAX_UNION_SELECTOR.
  destruct (s <=? 127); [|reflexivity]. cbn [bind].
  unfold get_from. replace (1 <=? len (s :: body)) with true.
  - reflexivity.
  - symmetry. rewrite len_cons. lia.
Qed.

Lemma split_union_bytes_not_panic bs : split_union_bytes bs <> Panic.
Proof.
  rewrite split_union_bytes_spec. destruct bs as [|s b]; [discriminate|].
  destruct (s <=? 127); discriminate.
Qed.
