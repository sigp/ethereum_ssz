(** * GenProps: properties C05 C09 C10 C11 C12 C13 C15 stated directly about the definitions that [rs2v] derives
    from the Rust text of /repo ([Generated.v]): each composes generated = model ([GenEquiv.v]) with the model
    theorem, so its subject is the source-derived term.  (The soft half of the tie, DESIGN.md section 2.3: a
    failure here is reported as TIE-DEGRADED, not as a violation.) *)
From SSZ Require Import Base RustSem Offsets Encoder Builder Bitfield BaseFacts OffsetsFacts
     Layout LayoutFacts BuilderFacts EncoderFacts BitfieldFacts BitfieldOps BitfieldOpsFacts Generated GenEquiv GenEquivEnc.
From Coq Require Import ZArith ZifyN ZifyBool ZifyNat Lia.
Open Scope N_scope.

(** [read_offset(&encode_length(n)) == Ok(n)] for every [n < 2^32] (C09). *)
Theorem Src_C09_word_round_trip n :
  n < 4294967296 -> (do w <- Gen.encode_length n; Gen.read_offset w) = Ok n.
Proof.
  intro H. rewrite gen_encode_length_eq. cbn [bind]. rewrite gen_read_offset_eq.
  apply read_offset_encode_length. exact H.
Qed.

(** [UnionSelector::new] accepts exactly 0..=127 and returns the byte (C15). *)
Theorem Src_C15_union_selector_new s :
  Gen.union_selector_new s = if s <=? 127 then Ok s else Err.
Proof. rewrite gen_union_selector_new_eq. reflexivity. Qed.

(** [split_union_bytes]: first byte (if at most 127) and the remaining bytes unchanged (C15). *)
Theorem Src_C15_split_union_bytes bs :
  Gen.split_union_bytes bs =
  match bs with [] => Err | s :: body => if s <=? 127 then Ok (s, body) else Err end.
Proof. rewrite gen_split_union_bytes_eq. apply split_union_bytes_spec. Qed.

(** The helpers never panic (C05). *)
Theorem Src_C05_helpers_no_panic bs :
  Gen.read_offset bs <> Panic /\ Gen.split_union_bytes bs <> Panic /\
  Gen.read_four_byte_union_selector bs <> Panic.
Proof.
  rewrite gen_read_offset_eq, gen_split_union_bytes_eq, gen_read_four_byte_union_selector_eq.
  repeat split; try apply read_offset_not_panic. apply split_union_bytes_not_panic.
Qed.

Definition gen_new (bs : bytes) : Gen.SszDecoderBuilder :=
  {| Gen.SszDecoderBuilder_bytes := bs; Gen.SszDecoderBuilder_items := [];
     Gen.SszDecoderBuilder_offsets := []; Gen.SszDecoderBuilder_items_index := 0 |}.

(** [?] after each registration: stop at the first error. *)
Fixpoint gen_register_all (s : Gen.SszDecoderBuilder) (regs : list (bool * N)) : outcome Gen.SszDecoderBuilder :=
  match regs with
  | [] => Ok s
  | (f, l) :: r => do s' <- Gen.builder_register s f l; gen_register_all s' r
  end.

(** [SszDecoderBuilder::new(bytes)], the registrations, [build()]: the slices handed out. *)
Definition gen_build (regs : list (bool * N)) (bs : bytes) : outcome (list bytes) :=
  do s <- gen_register_all (gen_new bs) regs;
  omap Gen.SszDecoderBuilder_items (Gen.builder_finalize s).

Lemma gen_register_all_eq regs : forall s,
  omap (fun s' => (Gen.SszDecoderBuilder_bytes s', st_abs s')) (gen_register_all s regs)
  = omap (fun st => (Gen.SszDecoderBuilder_bytes s, st))
         (register_all (Gen.SszDecoderBuilder_bytes s) (st_abs s) regs).
Proof.
  induction regs as [|[f l] r IH]; intro s; [reflexivity|].
  cbn [gen_register_all register_all].
  pose proof (gen_builder_register_eq s f l) as E.
  destruct (Gen.builder_register s f l) as [s'| |];
    destruct (register (Gen.SszDecoderBuilder_bytes s) (st_abs s) f l) as [st'| |];
    cbn [omap bind] in *; try discriminate; try reflexivity.
  injection E as Eb Es. rewrite IH, Eb, Es. reflexivity.
Qed.

Theorem gen_build_eq regs bs : gen_build regs bs = builder_build regs bs.
Proof.
  unfold gen_build, builder_build.
  pose proof (gen_register_all_eq regs (gen_new bs)) as E.
  change (Gen.SszDecoderBuilder_bytes (gen_new bs)) with bs in E.
  change (st_abs (gen_new bs)) with builder_new in E.
  destruct (gen_register_all (gen_new bs) regs) as [s| |];
    destruct (register_all bs builder_new regs) as [st| |];
    cbn [omap bind] in *; try discriminate; try reflexivity.
  injection E as Eb Es. rewrite gen_builder_finalize_eq, Eb, Es. reflexivity.
Qed.

(** The builder written in /repo succeeds exactly on tiled inputs and hands each item its own
    bytes in registration order (C09). *)
Theorem Src_C09_builder_tiles regs bs slices :
  wfb bs -> len bs <= usize_max ->
  (gen_build regs bs = Ok slices <-> Tiles regs bs slices).
Proof. intros Hw Hl. rewrite gen_build_eq. apply builder_build_tiles; assumption. Qed.

(** ... and never panics, for any registration sequence and any input (C05). *)
Theorem Src_C05_builder_no_panic regs bs :
  len bs <= usize_max -> gen_build regs bs <> Panic.
Proof. intro Hl. rewrite gen_build_eq. apply builder_build_no_panic. exact Hl. Qed.

(** Reads below the length are the stored bits; reads at or beyond it fail (C11). *)
Theorem Src_C11_get b i :
  Inv (bf_abs b) ->
  Gen.bitfield_get b i =
  if i <? Gen.Bitfield_len b then Ok (bit_at (Gen.Bitfield_bytes b) i) else Err.
Proof.
  intro HI. rewrite gen_bitfield_get_eq.
  destruct (i <? Gen.Bitfield_len b) eqn:E.
  - apply N.ltb_lt in E. apply (bf_get_bit_at (bf_abs b) i HI). exact E.
  - apply N.ltb_ge in E. apply (bf_get_out (bf_abs b) i). exact E.
Qed.

(** A successful [set] changes exactly bit [i], keeps the length and the invariant (minimal byte
    view, nothing set at or beyond the length); an out-of-range [set] fails (C11). *)
Theorem Src_C11_set b i v :
  Inv (bf_abs b) ->
  (i < Gen.Bitfield_len b ->
   exists b', Gen.bitfield_set b i v = Ok b' /\ Inv (bf_abs b') /\
              Gen.Bitfield_len b' = Gen.Bitfield_len b /\
              (forall j, bit_at (Gen.Bitfield_bytes b') j = if j =? i then v else bit_at (Gen.Bitfield_bytes b) j))
  /\ (Gen.Bitfield_len b <= i -> Gen.bitfield_set b i v = Err).
Proof.
  intro HI. pose proof (gen_bitfield_set_eq b i v) as E. split; intro Hi.
  - destruct (bf_set_ok (bf_abs b) i v HI Hi) as (m & Hm & Hspec). rewrite Hm in E.
    destruct (omap_ok _ _ _ E) as (b' & -> & ->). exists b'. split; [reflexivity | exact Hspec].
  - rewrite (bf_set_out (bf_abs b) i v Hi) in E. exact (omap_Err_inv _ _ E).
Qed.

(** [from_raw_bytes] never panics and whatever it accepts satisfies the invariant (C05, C13). *)
Theorem Src_C13_from_raw_bytes bs n :
  Gen.bitfield_from_raw_bytes bs n <> Panic /\
  (wfb bs -> forall b, Gen.bitfield_from_raw_bytes bs n = Ok b ->
     Inv (bf_abs b) /\ Gen.Bitfield_len b = n /\ Gen.Bitfield_bytes b = bs).
Proof.
  pose proof (gen_bitfield_from_raw_bytes_eq bs n) as E. split.
  - intro HP. rewrite HP in E. cbn [omap] in E. symmetry in E. exact (from_raw_bytes_no_panic bs n E).
  - intros Hw b Hb. rewrite Hb in E. cbn [omap] in E. symmetry in E.
    destruct (from_raw_bytes_Inv bs n _ Hw E) as (H0 & H1 & H2).
    split; [exact H0|]. split; [exact H2 | exact H1].
Qed.

(** [shift_up(n)] as written in the source: for [n <= len] it succeeds, keeps the length and the
    invariant, and moves every bit up by [n] with zeroes below; for [n > len] it fails (C11). *)
Theorem Src_C11_shift_up b n :
  Inv (bf_abs b) ->
  (n <= Gen.Bitfield_len b ->
   exists b', Gen.bitfield_shift_up b n = Ok b' /\ Inv (bf_abs b') /\
              Gen.Bitfield_len b' = Gen.Bitfield_len b /\
              (forall j, bit_at (Gen.Bitfield_bytes b') j =
                         if j <? n then false
                         else if j <? Gen.Bitfield_len b then bit_at (Gen.Bitfield_bytes b) (j - n) else false))
  /\ (Gen.Bitfield_len b < n -> Gen.bitfield_shift_up b n = Err).
Proof.
  intro HI. pose proof (gen_bitfield_shift_up_eq b n) as E. split; intro Hn.
  - destruct (shift_up_spec (bf_abs b) n HI Hn) as (m & Hm & Hspec). rewrite Hm in E.
    destruct (omap_ok _ _ _ E) as (b' & -> & ->). exists b'. split; [reflexivity | exact Hspec].
  - unfold shift_up in E. rewrite (proj2 (N.leb_gt n (bf_len (bf_abs b))) Hn) in E. exact (omap_Err_inv _ _ E).
Qed.

(** [difference_inplace] as written in the source never fails and clears exactly the bits of the
    other operand (positions the other operand does not have count as unset) (C12). *)
Theorem Src_C12_difference_inplace a o :
  exists a', Gen.bitfield_difference_inplace a o = Ok a' /\
             Gen.Bitfield_len a' = Gen.Bitfield_len a /\
             (forall i, bit_at (Gen.Bitfield_bytes a') i
                        = bit_at (Gen.Bitfield_bytes a) i && negb (bit_at (Gen.Bitfield_bytes o) i)).
Proof.
  destruct (omap_ok _ _ _ (gen_bitfield_difference_inplace_eq a o)) as (a' & -> & E). symmetry in E.
  exists a'. split; [reflexivity|]. split.
  - exact (f_equal bf_len E).
  - intro i. change (Gen.Bitfield_bytes a') with (bf_bytes (bf_abs a')). rewrite E. apply bit_at_diff_bytes.
Qed.

Fixpoint gen_appends (s : Gen.SszEncoder) (items : list (bool * (bytes -> bytes))) : outcome Gen.SszEncoder :=
  match items with
  | [] => Ok s
  | (f, app) :: r => do s' <- Gen.encoder_append s f (fun b => Ok (app b)); gen_appends s' r
  end.

(** [SszEncoder::container(buf, nf)], the appends in order, [finalize()]: the resulting buffer. *)
Definition gen_enc_run (buf : bytes) (nf : N) (items : list (bool * (bytes -> bytes))) : outcome bytes :=
  do s <- gen_appends {| Gen.SszEncoder_offset := nf; Gen.SszEncoder_buf := buf; Gen.SszEncoder_variable_bytes := [] |} items;
  omap Gen.SszEncoder_buf (Gen.encoder_finalize s).

Definition item_of (p : part) : bool * (bytes -> bytes) := (fst p, fun b : bytes => b ++ snd p).
Definition var_total (parts : list part) : N :=
  sumN (map (fun p : part => if fst p then 0 else len (snd p)) parts).

Lemma gen_appends_fold items : forall s,
  gen_appends s items = fold_m (fun s it => Gen.encoder_append s (fst it) (fun b => Ok (snd it b))) items s.
Proof. induction items as [|[f app] r IH]; intro s; cbn [gen_appends fold_m fst snd]; [reflexivity|]. destruct (Gen.encoder_append _ _ _); cbn [bind]; auto. Qed.

(** the offsets written are [nf + (variable bytes so far)], so they all fit when the total does *)
Lemma gen_appends_eq parts s :
  e_offset (enc_abs s) + len (e_var (enc_abs s)) + var_total parts <= usize_max ->
  exists s', gen_appends s (map item_of parts) = Ok s' /\
    enc_abs s' = fold_left (fun st it => enc_append st (fst it) (snd it)) (map item_of parts) (enc_abs s).
Proof.
  intro H. rewrite gen_appends_fold, fold_m_steps, map_map.
  apply (append_run item_of).
  - apply Forall2_map_left. intro p. exact (encoder_append_as (fst (item_of p)) _ (snd (item_of p)) (fun _ => eq_refl)).
  - apply (fits_sum item_of (fun p : part => if fst p then 0 else len (snd p))).
    + intros [f p] st. cbn [item_of fst snd]. destruct f; cbn [enc_append e_offset e_var]; [|rewrite len_app]; lia.
    + pose proof (sumN_removelast_le (fun p : part => if fst p then 0 else len (snd p)) parts). unfold var_total in H. lia.
Qed.

(** Driven with any fields and any pre-filled buffer, the encoder written in /repo produces
    [buf ++ fixed parts and offsets ++ variable parts] (C10), provided the offsets fit a [usize]. *)
Theorem Src_C10_encoder_any_history buf nf (parts : list part) :
  nf + var_total parts <= usize_max ->
  gen_enc_run buf nf (map item_of parts) = Ok (buf ++ assemble nf parts).
Proof.
  intro H. unfold gen_enc_run.
  destruct (gen_appends_eq parts {| Gen.SszEncoder_offset := nf; Gen.SszEncoder_buf := buf; Gen.SszEncoder_variable_bytes := [] |})
    as (s & -> & E); [change (nf + 0 + var_total parts <= usize_max); lia|].
  cbn [bind]. rewrite gen_encoder_finalize_eq, E. f_equal. apply (enc_run_bytes buf nf parts).
Qed.

Print Assumptions Src_C09_word_round_trip.
Print Assumptions Src_C15_split_union_bytes.
Print Assumptions Src_C05_helpers_no_panic.
Print Assumptions Src_C09_builder_tiles.
Print Assumptions Src_C05_builder_no_panic.
Print Assumptions Src_C11_get.
Print Assumptions Src_C11_set.
Print Assumptions Src_C13_from_raw_bytes.
Print Assumptions Src_C10_encoder_any_history.
Print Assumptions Src_C11_shift_up.
Print Assumptions Src_C12_difference_inplace.
