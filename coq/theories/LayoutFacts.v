(** * Algebra of [assemble]. *)
From SSZ Require Import Base BaseFacts Offsets OffsetsFacts Layout.
From Coq Require Import ZArith ZifyN ZifyNat ZifyBool.
Open Scope N_scope.

Lemma fixed_size_true b r : fixed_size ((true, b) :: r) = len b + fixed_size r.
Proof. reflexivity. Qed.
Lemma fixed_size_false b r : fixed_size ((false, b) :: r) = 4 + fixed_size r.
Proof. reflexivity. Qed.
Lemma var_concat_nil : var_concat [] = []. Proof. reflexivity. Qed.
Lemma var_concat_true b r : var_concat ((true, b) :: r) = var_concat r.
Proof. reflexivity. Qed.
Lemma var_concat_false b r : var_concat ((false, b) :: r) = b ++ var_concat r.
Proof. reflexivity. Qed.

Lemma asm_fixed_len off parts : len (assemble_fixed off parts) = fixed_size parts.
Proof.
  revert off; induction parts as [|[[|] b] r IH]; intros off; cbn [assemble_fixed].
  - reflexivity.
  - rewrite len_app, IH, fixed_size_true. reflexivity.
  - rewrite len_app, encode_length_len, IH, fixed_size_false. reflexivity.
Qed.

Lemma assemble_len nf parts : len (assemble nf parts) = fixed_size parts + len (var_concat parts).
Proof. unfold assemble. rewrite len_app, asm_fixed_len. reflexivity. Qed.

Lemma var_concat_len parts :
  len (var_concat parts) = sumN (map (fun p : part => if fst p then 0 else len (snd p)) parts).
Proof.
  induction parts as [|[[|] b] r IH]; cbn [map sumN fst snd].
  - reflexivity.
  - rewrite var_concat_true. exact IH.
  - rewrite var_concat_false, len_app, IH. reflexivity.
Qed.

Lemma asm_len nf parts :
  len (assemble nf parts) =
  sumN (map (fun p : part => if fst p then len (snd p) else 4 + len (snd p)) parts).
Proof.
  rewrite assemble_len, var_concat_len.
  induction parts as [|[[|] b] r IH]; rewrite ?fixed_size_true, ?fixed_size_false;
    cbn [map sumN fst snd]; [reflexivity|lia|lia].
Qed.


Lemma sumN_app a b : sumN (a ++ b) = sumN a + sumN b.
Proof. induction a as [|x a IH]; cbn [app sumN]; lia. Qed.

Lemma len_concat (l : list bytes) : len (concat l) = sumN (map len l).
Proof. induction l as [|x l IH]; cbn [concat map sumN]; [reflexivity|]. rewrite len_app, IH. reflexivity. Qed.

Lemma wfb_concat (l : list bytes) : Forall wfb l -> wfb (concat l).
Proof. induction 1; cbn [concat]; [constructor|]. apply wfb_app. auto. Qed.

Lemma wfb_asm_fixed off parts :
  Forall (fun p : part => wfb (snd p)) parts -> wfb (assemble_fixed off parts).
Proof.
  intros H. revert off. induction H as [|[[|] b] r Hb _ IH]; intros off; cbn [assemble_fixed].
  - constructor.
  - apply wfb_app. auto.
  - apply wfb_app. split; [apply wfb_encode_length|apply IH].
Qed.
Lemma wfb_var_concat parts :
  Forall (fun p : part => wfb (snd p)) parts -> wfb (var_concat parts).
Proof.
  intros H. unfold var_concat. induction H as [|[[|] b] r Hb _ IH]; cbn [map concat fst snd].
  - constructor.
  - exact IH.
  - apply wfb_app. auto.
Qed.
Lemma wfb_asm nf parts :
  Forall (fun p : part => wfb (snd p)) parts -> wfb (assemble nf parts).
Proof. intros H. apply wfb_app. split; [now apply wfb_asm_fixed|now apply wfb_var_concat]. Qed.

Lemma offsets_of_bound off parts o :
  In o (offsets_of off parts) -> off <= o /\ o <= off + len (var_concat parts).
Proof.
  revert off; induction parts as [|[[|] b] r IH]; intros off; cbn [offsets_of].
  - intros [].
  - rewrite var_concat_true. apply IH.
  - rewrite var_concat_false, len_app. intros [<-|H]; [lia|]. apply IH in H. lia.
Qed.

Lemma offsets_of_head off parts :
  match offsets_of off parts with [] => var_concat parts = [] | o :: _ => o = off end.
Proof.
  induction parts as [|[[|] b] r IH]; cbn [offsets_of]; [reflexivity|exact IH|reflexivity].
Qed.

Lemma offsets_of_sorted off parts i j :
  (i <= j)%nat -> (j < length (offsets_of off parts))%nat ->
  nth i (offsets_of off parts) 0 <= nth j (offsets_of off parts) 0.
Proof.
  revert off i j; induction parts as [|[[|] b] r IH]; intros off i j Hij Hj; cbn [offsets_of] in *.
  - cbn in Hj. lia.
  - apply IH; assumption.
  - cbn [length] in Hj. destruct j as [|j]; [replace i with 0%nat by lia; lia|].
    destruct i as [|i]; cbn [nth]; [|apply IH; lia].
    destruct (offsets_of_bound (off + len b) r (nth j (offsets_of (off + len b) r) 0)); [|lia].
    apply nth_In. lia.
Qed.
