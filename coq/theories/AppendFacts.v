(** * [ssz_append] is append-only and context-free (C10), and closed forms of [enc]. *)
From SSZ Require Import Base BaseFacts Offsets OffsetsFacts Encoder EncoderFacts Layout
     Types Codec Spec CodecUnfold MetaFacts.
From Coq Require Import ZArith ZifyN ZifyNat ZifyBool.
Open Scope N_scope.

(** [sequence_ssz_append] in closed form. *)
Definition seq_enc (item_fixed : bool) (encs : list bytes) : bytes :=
  if item_fixed then concat encs
  else assemble (4 * N.of_nat (length encs)) (map (fun e => (false, e)) encs).

Lemma Forall2_len {A B} (R : A -> B -> Prop) l1 l2 : Forall2 R l1 l2 -> length l1 = length l2.
Proof. induction 1; cbn [length]; congruence. Qed.

Lemma fold_apps apps encs buf :
  Forall2 (fun (app : bytes -> bytes) e => forall b, app b = b ++ e) apps encs ->
  fold_left (fun b app => app b) apps buf = buf ++ concat encs.
Proof.
  intros H. revert buf. induction H as [|app e apps encs Ha _ IH]; intros buf; cbn [fold_left concat].
  - now rewrite app_nil_r.
  - now rewrite IH, Ha, <- app_assoc.
Qed.

Lemma seq_append_spec f apps encs buf :
  Forall2 (fun (app : bytes -> bytes) e => forall b, app b = b ++ e) apps encs ->
  seq_append f apps buf = buf ++ seq_enc f encs.
Proof.
  intros H. unfold seq_append, seq_enc. destruct f; [now apply fold_apps|].
  rewrite (Forall2_len _ _ _ H), N.mul_comm. apply enc_run_assemble.
  induction H; cbn [map]; constructor; [split|]; auto.
Qed.

(** ** Writers that leave the buffer they are given in place and add bytes that do not depend on it.
    Every [append t v] is one, because the class is closed under what [append] is built from. *)
Definition appender (app : bytes -> bytes) : Prop := forall b, app b = b ++ app [].

Lemma appender_const p : appender (fun b => b ++ p).
Proof. intros b. reflexivity. Qed.
Lemma appender_id : appender (fun b => b).
Proof. intros b. now rewrite app_nil_r. Qed.
Lemma appender_after p app : appender app -> appender (fun b => app (b ++ p)).
Proof. intros H b. now rewrite H, (H ([] ++ p)), app_assoc. Qed.

Lemma appender_seq f apps : Forall appender apps -> appender (seq_append f apps).
Proof.
  intros H b.
  assert (H2 : Forall2 (fun (app : bytes -> bytes) e => forall b, app b = b ++ e)
                       apps (map (fun app => app []) apps)) by (induction H; constructor; auto).
  now rewrite !(seq_append_spec _ _ _ _ H2).
Qed.

Lemma appender_run nf items :
  Forall (fun it : bool * (bytes -> bytes) => appender (snd it)) items ->
  appender (fun b => enc_run b nf items).
Proof.
  intros H b.
  assert (H2 : Forall2 appends items (map (fun it => (fst it, snd it [])) items))
    by (induction H; constructor; [split|]; auto).
  now rewrite !(enc_run_assemble _ _ _ _ H2).
Qed.

(** The map entry closure is the tuple encoder. *)
Definition entry_app (k v : ty) (e : val) (b : bytes) : bytes :=
  match e with
  | VCont [a; c] =>
      enc_run b (e_fixed_len k + e_fixed_len v)
              [(e_is_fixed k, append k a); (e_is_fixed v, append v c)]
  | _ => b
  end.
Lemma append_map k v es buf :
  append (TMap k v) (VList es) buf =
  seq_append (e_is_fixed k && e_is_fixed v) (map (entry_app k v) es) buf.
Proof. reflexivity. Qed.

Lemma entry_app_tuple k v e b :
  (exists a c, e = VCont [a; c]) ->
  entry_app k v e b = append (TContainer false [k; v]) e b.
Proof.
  intros (a & c & ->). rewrite append_container. unfold entry_app, cont_items.
  cbn [map sumN combine fst snd]. now rewrite N.add_0_r.
Qed.

Lemma appender_append t : forall v, appender (append t v).
Proof.
  induction t using ty_ind'; intros v;
    try (destruct v; first [exact appender_id | apply appender_const]).
  - (* TList *) destruct v; try exact appender_id.
    apply appender_seq. induction vs; constructor; auto.
  - (* TSet *) destruct v; try exact appender_id.
    apply appender_seq. induction vs; constructor; auto.
  - (* TMap *) destruct v; try exact appender_id.
    apply appender_seq. induction vs as [|e es IH]; constructor; [|exact IH].
    destruct e as [| | | | | |[|a [|c [|]]]| | |]; try exact appender_id.
    apply appender_run. repeat constructor; cbn [snd]; auto.
  - (* TOption *) destruct v; try exact appender_id; [apply appender_const|].
    apply (appender_after [1]), IHt.
  - (* TContainer *) destruct v; try exact appender_id. intros b. rewrite !append_container.
    apply appender_run. apply Forall_map, Forall_forall. intros [f x] Hin%in_combine_l.
    rewrite Forall_forall in H. apply (H f Hin).
  - (* TUnion *) destruct v; try exact appender_id. intros b. rewrite !append_union.
    destruct (nth_error vs i) as [t|] eqn:E; [|apply appender_id].
    rewrite Forall_forall in H. apply (appender_after [N.of_nat i]), (H t (nth_error_In _ _ E)).
  - (* TTransEnum *) destruct v; try exact appender_id. intros b. rewrite !append_trans.
    destruct (nth_error vs i) as [t|] eqn:E; [|apply appender_id].
    rewrite Forall_forall in H. apply (H t (nth_error_In _ _ E)).
  - (* TWrap *) apply IHt.
  - (* TLegacyOpt *) destruct v; try exact appender_id; [apply appender_const|].
    apply (appender_after (encode_length 1)), IHt.
Qed.

(** C10: appending to any buffer leaves it untouched and adds exactly the standalone encoding. *)
Theorem append_spec t : forall v buf, append t v buf = buf ++ enc t v.
Proof. exact (appender_append t). Qed.

Lemma enc_list t vs : enc (TList t) (VList vs) = seq_enc (e_is_fixed t) (map (enc t) vs).
Proof.
  apply (seq_append_spec _ (map (append t) vs) _ []).
  induction vs; constructor; [apply append_spec|assumption].
Qed.
Lemma enc_set t vs : enc (TSet t) (VList vs) = seq_enc (e_is_fixed t) (map (enc t) vs).
Proof. exact (enc_list t vs). Qed.

Lemma enc_option_some t x : enc (TOption t) (VSome x) = 1 :: enc t x.
Proof. apply (append_spec t x [1]). Qed.
Lemma enc_legacy_some t x : enc (TLegacyOpt t) (VSome x) = encode_length 1 ++ enc t x.
Proof. apply (append_spec t x (encode_length 1)). Qed.
Lemma enc_union ts i x :
  enc (TUnion ts) (VUnion i x) =
  match nth_error ts i with Some t => N.of_nat i :: enc t x | None => [] end.
Proof.
  unfold enc at 1. rewrite append_union. destruct (nth_error ts i); [|reflexivity].
  apply (append_spec _ _ [_]).
Qed.
Lemma enc_trans ts i x :
  enc (TTransEnum ts) (VUnion i x) =
  match nth_error ts i with Some t => enc t x | None => [] end.
Proof. apply append_trans. Qed.

Definition cont_parts (fs : list ty) (vs : list val) : list part :=
  map (fun p => (e_is_fixed (fst p), enc (fst p) (snd p))) (combine fs vs).

Lemma enc_container d fs vs :
  enc (TContainer d fs) (VCont vs) = assemble (sumN (map e_fixed_len fs)) (cont_parts fs vs).
Proof.
  unfold enc at 1. rewrite append_container. apply (enc_run_assemble []).
  unfold cont_items, cont_parts. induction (combine fs vs); constructor; [split|]; auto.
  intros b. apply append_spec.
Qed.
Lemma enc_map k v es :
  Forall (fun e => exists a c, e = VCont [a; c]) es ->
  enc (TMap k v) (VList es) = enc (TList (TContainer false [k; v])) (VList es).
Proof.
  intros H. rewrite enc_list, e_is_fixed_container. cbn [forallb]. rewrite andb_true_r.
  apply (seq_append_spec _ (map (entry_app k v) es) _ []).
  induction H as [|e es He _ IH]; constructor; [|exact IH].
  intros b. rewrite (entry_app_tuple k v e b He). apply append_spec.
Qed.
Lemma enc_map_typed k v es :
  has_ty (TMap k v) (VList es) = true ->
  enc (TMap k v) (VList es) = enc (TList (TContainer false [k; v])) (VList es).
Proof.
  intros H%has_ty_map_entries. apply enc_map. revert H. apply Forall_impl.
  intros e (a & c & -> & _). eauto.
Qed.

(** All encoding entry points agree (C10). *)
Theorem as_bytes_enc t v : as_bytes t v = enc t v.
Proof. destruct t; try reflexivity; destruct v; reflexivity. Qed.
Theorem ssz_encode_enc t v : ssz_encode t v = enc t v.
Proof. apply as_bytes_enc. Qed.
Theorem wrap_forwards t v buf : append (TWrap t) v buf = append t v buf.
Proof. reflexivity. Qed.
