(** * Size prediction is exact (C07, dynamic part). *)
From SSZ Require Import Base BaseFacts Offsets OffsetsFacts Encoder EncoderFacts Layout LayoutFacts
     Bitfield Types Codec Spec CodecUnfold MetaFacts LeafIface.
From SSZ Require Export AppendFacts.
From Coq Require Import ZArith ZifyN ZifyNat ZifyBool.
Open Scope N_scope.

Definition size_ok (t : ty) : Prop :=
  forall v, has_ty t v = true ->
    bytes_len t v = len (enc t v) /\ (e_is_fixed t = true -> len (enc t v) = e_fixed_len t).

Lemma seq_enc_len f encs :
  len (seq_enc f encs) =
  if f then sumN (map len encs) else sumN (map len encs) + 4 * N.of_nat (length encs).
Proof.
  unfold seq_enc. destruct f; [apply len_concat|].
  rewrite asm_len. induction encs as [|e encs IH]; cbn [map sumN length fst snd]; lia.
Qed.

Lemma fixed_enc_len (L : LeafFacts) t v :
  has_ty t v = true -> e_is_fixed t = true -> len (enc t v) = e_fixed_len t.
Proof.
  revert t v. apply (typed_ind (fun t v => e_is_fixed t = true -> len (enc t v) = e_fixed_len t));
    try discriminate.
  (* what remains: integers, bool, byte arrays, containers, tags, wrappers, bit vectors *)
  - intros k n _ _. apply (f_equal N.of_nat (le_bytes_length k n)).
  - intros [|] _; reflexivity.
  - intros n _ _ _. apply (f_equal N.of_nat (le_bytes_length 8 n)).
  - intros n bs _ Hl _. apply (f_equal N.of_nat Hl).
  - intros d fs vs _ H. rewrite e_is_fixed_container, e_fixed_len_container, enc_container, asm_len.
    intros Hf. rewrite Hf. unfold cont_parts.
    induction H as [|f x fs vs Hx _ IH]; [reflexivity|]. cbn [forallb] in Hf. apply andb_prop in Hf as [Hf Hr].
    cbn [combine map sumN fst snd]. now rewrite Hf, (Hx Hf), (IH Hr).
  - reflexivity.
  - intros t x _ H. exact H.
  - intros n bits Hn _. now apply (lf_bv_len L).
Qed.

Lemma field_len_enc (L : LeafFacts) f x :
  has_ty f x = true -> bytes_len f x = len (enc f x) ->
  field_len f x = if e_is_fixed f then len (enc f x) else 4 + len (enc f x).
Proof.
  intros Hx Hb. unfold field_len. destruct (e_is_fixed f) eqn:Ef; [|now rewrite Hb].
  symmetry. now apply fixed_enc_len.
Qed.

Lemma size_seq (L : LeafFacts) t vs :
  forallb (has_ty t) vs = true -> Forall (fun v => bytes_len t v = len (enc t v)) vs ->
  seq_bytes_len (e_is_fixed t) (e_fixed_len t) (map (bytes_len t) vs)
  = len (seq_enc (e_is_fixed t) (map (enc t) vs)).
Proof.
  intros Hv H. rewrite seq_enc_len, map_map. unfold seq_bytes_len. rewrite !map_length.
  destruct (e_is_fixed t) eqn:Ef; [|now rewrite (map_ext_Forall _ _ _ H)].
  clear H. induction vs as [|x vs IH]; cbn [map sumN length forallb] in *; [lia|].
  apply andb_prop in Hv as [Hx Hv]. rewrite <- (IH Hv), (fixed_enc_len L t x Hx Ef). lia.
Qed.

Lemma bytes_len_map k v es :
  has_ty (TMap k v) (VList es) = true ->
  bytes_len (TMap k v) (VList es) = bytes_len (TList (TContainer false [k; v])) (VList es).
Proof.
  intros H%has_ty_map_entries. remember (TContainer false [k; v]) as T eqn:ET.
  cbn [bytes_len]. subst T. rewrite e_is_fixed_container, e_fixed_len_container.
  cbn [forallb map sumN]. rewrite !andb_true_r, N.add_0_r. f_equal.
  apply map_ext_Forall. revert H. apply Forall_impl. intros e (a & c & -> & _).
  rewrite bytes_len_container. cbn [forallb combine map sumN fst snd].
  rewrite !andb_true_r, !N.add_0_r. now destruct (e_is_fixed k && e_is_fixed v).
Qed.

Lemma bytes_len_enc (L : LeafFacts) t v : has_ty t v = true -> bytes_len t v = len (enc t v).
Proof.
  revert t v. apply (typed_ind (fun t v => bytes_len t v = len (enc t v))); try reflexivity.
  - intros k n _. symmetry. apply (f_equal N.of_nat (le_bytes_length k n)).
  - intros n bs _ Hl. symmetry. apply (f_equal N.of_nat Hl).
  - (* TList *) intros t vs Hv H. rewrite enc_list. now apply size_seq.
  - (* TSet *) intros t vs Hv _ H. rewrite enc_set. now apply size_seq.
  - (* TMap *) intros k v es Hv H. now rewrite bytes_len_map, enc_map_typed.
  - (* TOption *) intros t x _ H. rewrite enc_option_some, len_cons. cbn [bytes_len]. now rewrite H.
  - (* TContainer *) intros d fs vs Hv H. rewrite bytes_len_container.
    destruct (forallb e_is_fixed fs) eqn:Ef.
    + rewrite (fixed_enc_len L (TContainer d fs)), e_fixed_len_container, ?Ef; auto.
      now rewrite has_ty_container.
    + rewrite enc_container, asm_len. unfold cont_parts. rewrite map_map. f_equal. cbn [fst snd].
      apply has_ty_fields_Forall2 in Hv. clear Ef.
      induction H as [|f x fs vs Hx _ IH]; inversion Hv; subst; cbn [combine map]; [reflexivity|].
      f_equal; [now apply field_len_enc|auto].
  - (* TUnion *) intros ts i t x _ E _ H. now rewrite bytes_len_union, enc_union, E, H, len_cons.
  - (* TTransEnum *) intros ts i t x E _ H. now rewrite bytes_len_trans, enc_trans, E.
  - (* TWrap *) intros t x _ H. exact H.
  - (* TLegacyOpt *) intros t x Hx H. rewrite enc_legacy_some, len_app, encode_length_len.
    cbn [bytes_len]. unfold BYTES_PER_LENGTH_OFFSET.
    destruct (e_is_fixed t) eqn:Ef; [rewrite <- (fixed_enc_len L t x Hx Ef)|rewrite H]; lia.
Qed.

Theorem size_facts (L : LeafFacts) t : size_ok t.
Proof. intros v Hv. split; [now apply bytes_len_enc|now apply fixed_enc_len]. Qed.
