(** * Encodings are byte strings. *)
From SSZ Require Import Base BaseFacts Offsets OffsetsFacts Encoder EncoderFacts Layout LayoutFacts
     Bitfield Types Codec Spec CodecUnfold MetaFacts AppendFacts LeafIface SizeFacts.
From Coq Require Import ZArith ZifyN ZifyNat ZifyBool.
Open Scope N_scope.

Definition wfb_ok (t : ty) : Prop := forall v, has_ty t v = true -> wfb (enc t v).

Lemma wfb_seq_enc f encs : Forall wfb encs -> wfb (seq_enc f encs).
Proof.
  intros H. unfold seq_enc. destruct f; [now apply wfb_concat|].
  apply wfb_asm, Forall_map. exact H.
Qed.

Theorem wfb_facts (L : LeafFacts) t : wfb_ok t.
Proof.
  unfold wfb_ok. revert t. apply (typed_ind (fun t v => wfb (enc t v))).
  - intros k n _. apply wfb_le_bytes.
  - intros b. apply wfb_le_bytes.
  - intros n _ _. apply wfb_le_bytes.
  - intros n bs Hw _. exact Hw.
  - intros bs Hw. exact Hw.
  - (* TList *) intros t vs _ H. rewrite enc_list. now apply wfb_seq_enc, Forall_map.
  - (* TSet *) intros t vs _ _ H. rewrite enc_set. now apply wfb_seq_enc, Forall_map.
  - (* TMap *) intros k v es Hv H. now rewrite enc_map_typed.
  - (* TOption *) intros t. apply Forall_cons; [lia|constructor].
  - intros t x _ H. rewrite enc_option_some. apply Forall_cons; [lia|exact H].
  - (* TContainer *) intros d fs vs _ H. rewrite enc_container. apply wfb_asm, Forall_map.
    induction H; cbn [combine]; constructor; auto.
  - (* TUnion: the selector is the variant index *) intros ts i t x Hn E _ H. rewrite enc_union, E.
    apply Forall_cons; [|exact H]. assert (i < length ts)%nat by (apply nth_error_Some; congruence). lia.
  - (* TTag *) intros n i Hi Hn. apply Forall_cons; [lia|constructor].
  - (* TTransEnum *) intros ts i t x E _ H. now rewrite enc_trans, E.
  - (* TWrap *) intros t x _ H. exact H.
  - intros n bits _. apply (lf_bv_wfb L).
  - intros n bits _. apply (lf_bl_wfb L).
  - intros bits _ _. apply (lf_bd_wfb L).
  - (* TLegacyOpt *) intros t. apply wfb_encode_length.
  - intros t x _ H. rewrite enc_legacy_some. apply wfb_app. split; [apply wfb_encode_length|exact H].
Qed.
