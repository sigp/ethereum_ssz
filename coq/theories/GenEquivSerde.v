(** * GenEquivSerde: the serde impls of the three bitfield types (C18), as written in the source, are the model's
    [serde_ser] / [serde_de]: "0x" + lowercase hex of the SSZ encoding; the prefixed hex string, then the SSZ
    decoder.  The hex crate's two functions are primitives (RustSem.v). *)
From SSZ Require Import Base RustSem Bitfield BitfieldOps Hex HexFacts Generated GenEquiv GenEquivBits.
From Coq Require Import ZArith ZifyN ZifyBool ZifyNat Lia.
Open Scope N_scope.

Theorem gen_bitvector_serialize_eq n b : Gen.bitvector_serialize n b = Ok (serde_ser (FVec n) (bf_abs b)).
Proof. reflexivity. Qed.
Theorem gen_bitdyn_serialize_eq b : Gen.bitdyn_serialize b = Ok (serde_ser FDyn (bf_abs b)).
Proof. reflexivity. Qed.
Theorem gen_bitlist_serialize_eq n b :
  bf_len (bf_abs b) < usize_max ->
  Gen.bitlist_serialize n b = omap hex_encode (bl_into_bytes (bf_abs b)).
Proof.
  intro H. unfold Gen.bitlist_serialize, Gen.encode_default_as_ssz_bytes. rewrite gen_bitlist_ssz_append_eq by exact H.
  destruct (bl_into_bytes (bf_abs b)); reflexivity.
Qed.
(** when the list is encodable at all this is the model's serializer *)
Theorem gen_bitlist_serialize_model n b bs :
  bf_len (bf_abs b) < usize_max -> bl_into_bytes (bf_abs b) = Ok bs ->
  Gen.bitlist_serialize n b = Ok (serde_ser (FList n) (bf_abs b)).
Proof. intros H E. rewrite gen_bitlist_serialize_eq by exact H. unfold serde_ser, i_ssz. rewrite E. reflexivity. Qed.

Lemma prefixed_hex_decode_wfb s bs : prefixed_hex_decode s = Some bs -> wfb bs.
Proof. intro H. apply prefixed_hex_decode_some in H as (h & _ & Hh). exact (wfb_bytes_of_hex h bs Hh). Qed.

Theorem gen_bitvector_deserialize_eq n s : omap bf_abs (Gen.bitvector_deserialize n s) = serde_de (FVec n) s.
Proof.
  unfold Gen.bitvector_deserialize, serde_de. destruct (prefixed_hex_decode s) as [bs|]; cbn [ok_or bind i_decode]; [|reflexivity].
  apply gen_bitvector_from_ssz_bytes_eq.
Qed.
Theorem gen_bitlist_deserialize_eq n s :
  (forall bs, prefixed_hex_decode s = Some bs -> 8 * len bs <= usize_max) ->
  omap bf_abs (Gen.bitlist_deserialize n s) = serde_de (FList n) s.
Proof.
  intro Hs. unfold Gen.bitlist_deserialize, serde_de. destruct (prefixed_hex_decode s) as [bs|] eqn:E; cbn [ok_or bind i_decode]; [|reflexivity].
  apply gen_bitlist_from_ssz_bytes_eq; [exact (prefixed_hex_decode_wfb s bs E) | exact (Hs bs eq_refl)].
Qed.
Theorem gen_bitdyn_deserialize_eq s :
  (forall bs, prefixed_hex_decode s = Some bs -> 8 * len bs <= usize_max) ->
  omap bf_abs (Gen.bitdyn_deserialize s) = serde_de FDyn s.
Proof.
  intro Hs. unfold Gen.bitdyn_deserialize, serde_de. destruct (prefixed_hex_decode s) as [bs|] eqn:E; cbn [ok_or bind i_decode]; [|reflexivity].
  apply gen_bitdyn_from_ssz_bytes_eq. exact (Hs bs eq_refl).
Qed.

Print Assumptions gen_bitvector_serialize_eq.
Print Assumptions gen_bitdyn_serialize_eq.
Print Assumptions gen_bitlist_serialize_eq.
Print Assumptions gen_bitlist_serialize_model.
Print Assumptions gen_bitvector_deserialize_eq.
Print Assumptions gen_bitlist_deserialize_eq.
Print Assumptions gen_bitdyn_deserialize_eq.
