(** The leaf-type facts of [LeafIface.v]: round trip, canonicity, agreement with the spec and byte range are proved
    once for all three flavours, from the refinement theorems of [BitfieldOpsFacts.v], and read off at [FVec n],
    [FList n], [FDyn]; the three no-panic facts are those of [BitfieldFacts.v]. *)
From SSZ Require Import Base BaseFacts Bitfield Types Codec Spec LeafIface.
From SSZ Require Import BitfieldFacts BitfieldOps BitfieldOpsFacts.
From Coq Require Import ZArith ZifyN ZifyNat.
Open Scope N_scope.

(* [bitvector_bytes n], [bitlist_bytes n] and [bitdyn_bytes] unfold to this at their flavour *)
Definition leaf_bytes (fl : flavour) (bits : list bool) : bytes :=
  match i_of_bits fl bits with Ok b => i_ssz fl b | _ => [] end.

Lemma leaf_rt fl bits : len_ok fl (blen bits) ->
  exists b, i_decode fl (leaf_bytes fl bits) = Ok b /\ bf_iter b = bits.
Proof.
  intros Hok. destruct (of_bits_R fl bits Hok) as (b & E & HR). exists b.
  unfold leaf_bytes. rewrite E. split; [apply (decode_ssz_round_trip fl b bits HR) | apply HR].
Qed.
Lemma leaf_canon fl bs b : wfb bs -> i_decode fl bs = Ok b ->
  leaf_bytes fl (bf_iter b) = bs /\ len_ok fl (blen (bf_iter b)).
Proof.
  intros Hw H. destruct (decoded_valid fl bs b Hw H) as (bits & HR & Hok & _).
  rewrite (R_len _ _ _ HR) in Hok. destruct HR as (HI & <- & Hl).
  unfold leaf_bytes. rewrite (R_rebuild fl b (bf_iter b)) by (split; auto).
  split; [apply decode_canon; assumption | exact Hok].
Qed.
Lemma leaf_spec fl bits : len_ok fl (blen bits) -> leaf_bytes fl bits = a_ssz fl bits.
Proof.
  intros Hok. destruct (of_bits_R fl bits Hok) as (b & E & HR).
  unfold leaf_bytes. rewrite E. apply R_ssz, HR.
Qed.
Lemma leaf_wfb fl bits : wfb (leaf_bytes fl bits).
Proof.
  unfold leaf_bytes. destruct (i_of_bits fl bits) as [b| |] eqn:E; [|constructor|constructor].
  destruct (of_bits_R fl bits (of_bits_len_ok fl bits b E)) as (b' & E' & HR).
  rewrite E in E'. injection E' as <-. apply (decode_ssz_round_trip fl b bits HR).
Qed.
Lemma bitvector_len n bits : N.of_nat (length bits) = n ->
  len (bitvector_bytes n bits) = bytes_for_bit_len n.
Proof.
  intros H. destruct (of_bits_R (FVec n) bits H) as (b & E & HR).
  unfold bitvector_bytes. cbn [i_of_bits] in E. rewrite E, <- H. apply (R_bytes_len _ _ _ HR).
Qed.

Lemma leaf_facts : LeafFacts.
Proof.
  assert (D : forall bits, (0 < length bits)%nat -> N.of_nat (length bits) mod 8 = 0 ->
                           len_ok FDyn (blen bits)).
  { intros bits H0 H8. split; [unfold blen; lia | exact H8]. }
  refine (Build_LeafFacts
            (fun n => leaf_rt (FVec n)) (fun n => leaf_canon (FVec n)) bitvector_no_panic
            (fun n => leaf_spec (FVec n)) bitvector_len (fun n => leaf_wfb (FVec n))
            (fun n => leaf_rt (FList n)) (fun n => leaf_canon (FList n)) bitlist_no_panic
            (fun n => leaf_spec (FList n)) (fun n => leaf_wfb (FList n))
            (fun bits H0 H8 => leaf_rt FDyn bits (D bits H0 H8)) _ bitdyn_no_panic
            (fun bits H0 H8 => leaf_spec FDyn bits (D bits H0 H8)) (leaf_wfb FDyn)).
  intros bs b Hw H. destruct (leaf_canon FDyn bs b Hw H) as (Hc & H0 & H8).
  split; [exact Hc|]. split; [unfold blen in H0; lia | exact H8].
Qed.
