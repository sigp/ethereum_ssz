(** * Decoding untrusted bytes never reaches a panic site of the model (C05). *)
From SSZ Require Import BaseFacts OffsetsFacts BuilderFacts Codec CodecUnfold LeafIface ListDecFacts
     RoundTrip Canon.
From Coq Require Import ZArith ZifyN ZifyNat ZifyBool.
Open Scope N_scope.

(** [phys bs]: [bs] is a byte string that can exist on a 64-bit machine. *)
Definition nopanic_ok (t : ty) : Prop := forall bs, phys bs -> dec t bs <> Panic.

Lemma nopanic_container d fs : Forall nopanic_ok fs -> nopanic_ok (TContainer d fs).
Proof.
  intros HF bs Hp. rewrite (dec_container_builder d fs bs Hp).
  pose proof (builder_build_no_panic (regs_of fs) bs (proj2 Hp)) as Hn.
  destruct (builder_build (regs_of fs) bs) as [items| |] eqn:Eb; cbn [bind]; try congruence.
  apply omap_no_panic, (decode_all_no_panic_rel phys).
  - eapply builder_items_phys; eauto.
  - apply builder_build_length in Eb. unfold regs_of in Eb. rewrite map_length in *. lia.
  - intros f s Hf Hs. apply in_map_iff in Hf as (g & <- & Hg).
    rewrite Forall_forall in HF. now apply HF.
Qed.

Lemma first_ok_no_panic ds bs : forall idx,
  (forall d, In d ds -> d bs <> Panic) -> first_ok ds bs idx <> Panic.
Proof.
  induction ds as [|d ds IH]; intros idx H; cbn [first_ok]; [discriminate|].
  pose proof (H d (or_introl eq_refl)) as Hd. destruct (d bs); try congruence.
  apply IH. intros e He. apply H. now right.
Qed.

Lemma nopanic_seq t f k bs : nopanic_ok t -> phys bs -> dec_seq f k (dec t) bs <> Panic.
Proof. intros Ht Hp. exact (dec_seq_no_panic_rel phys _ f k bs phys_slice_closed Hp Ht). Qed.

Theorem nopanic_facts (L : LeafFacts) t : nopanic_ok t.
Proof.
  induction t using ty_ind'; intros bs Hp; pose proof (proj1 Hp) as Hw.
  - cbn [dec]. destruct (_ =? _); discriminate.
  - cbn [dec]. unfold dec_bool. destruct bs as [|b [|? ?]]; try discriminate.
    destruct (b =? 0); [discriminate|]. destruct (b =? 1); discriminate.
  - cbn [dec]. destruct (_ =? _); [|discriminate]. destruct (_ =? _); discriminate.
  - cbn [dec]. destruct (_ =? _); discriminate.
  - discriminate.
  - (* TList *) cbn [dec]. now apply omap_no_panic, nopanic_seq.
  - (* TSet *) cbn [dec]. now apply omap_no_panic, nopanic_seq.
  - (* TMap *) rewrite dec_map_eq. apply omap_no_panic, nopanic_seq; [|exact Hp].
    apply nopanic_container. repeat constructor; assumption.
  - (* TOption *) destruct bs as [|s body]; [discriminate|]. rewrite dec_option_selector.
    destruct (s =? 0); [destruct body; discriminate|]. destruct (s =? 1); [|discriminate].
    apply omap_no_panic, IHt, (phys_cons _ _ Hp).
  - now apply nopanic_container.
  - (* TUnion *) destruct bs as [|s body]; [now rewrite dec_union_empty|]. rewrite dec_union_selector.
    destruct (s <=? 127); [|discriminate]. destruct (nth_error vs (N.to_nat s)) as [t|] eqn:E; [|discriminate].
    apply omap_no_panic. rewrite Forall_forall in H. apply (H t (nth_error_In _ _ E)), (phys_cons _ _ Hp).
  - cbn [dec]. destruct bs as [|b [|? ?]]; try discriminate. destruct (_ <? _); discriminate.
  - (* TTransEnum *) rewrite dec_trans. apply first_ok_no_panic. intros d Hd.
    apply in_map_iff in Hd as (t & <- & Ht). rewrite Forall_forall in H. now apply H.
  - exact (IHt bs Hp).
  - cbn [dec]. apply omap_no_panic. apply (lf_bv_no_panic L).
  - cbn [dec]. apply omap_no_panic. now apply (lf_bl_no_panic L).
  - cbn [dec]. apply omap_no_panic. apply (lf_bd_no_panic L).
  - (* TLegacyOpt *) rewrite dec_legacy. destruct (len bs <? 4); [discriminate|].
    destruct (_ =? 0); [destruct (drop 4 bs); discriminate|]. destruct (_ =? 1); [|discriminate].
    apply omap_no_panic, IHt. now apply phys_drop.
Qed.
