(** * GenEquivDerive2: further sample definitions (skipped fields, byte arrays, transparent enums,
    nested user types); same statements as [GenEquivDerive]. *)
From SSZ Require Import Base RustSem Offsets Encoder Builder Types Codec CodecUnfold BaseFacts OffsetsFacts
     Generated GenEquiv GenEquivDec GenEquivEnc GenProps GeneratedDerive GenEquivDerive.
From Coq Require Import ZArith ZifyN ZifyBool ZifyNat Lia.
Open Scope N_scope.

Definition T_Skip : ty := TContainer true [TUint 2; TList (TUint 1)].
Definition v_Skip (r : GenD.Skip) : val := VCont [VUint (GenD.Skip_a r); v_list (GenD.Skip_c r)].

Theorem derive2_metadata :
  GenD.Skip_enc_is_ssz_fixed_len = Ok (e_is_fixed T_Skip) /\ GenD.Skip_enc_ssz_fixed_len = Ok (e_fixed_len T_Skip) /\
  GenD.Skip_dec_is_ssz_fixed_len = Ok (d_is_fixed T_Skip) /\ GenD.Skip_dec_ssz_fixed_len = Ok (d_fixed_len T_Skip).
Proof. repeat split; vm_compute; reflexivity. Qed.

Theorem derive_Skip_ssz_append r buf :
  6 + llen (GenD.Skip_c r) <= usize_max ->
  GenD.Skip_ssz_append r buf = Ok (append T_Skip (v_Skip r) buf).
Proof.
  intro H. unfold GenD.Skip_ssz_append. leaf_meta.
  apply (container_append true [TUint 2; TList (TUint 1)] [VUint (GenD.Skip_a r); v_list (GenD.Skip_c r)]
           [put true Gen.u16_ssz_append (GenD.Skip_a r); put false (Gen.vec_ssz_append true 1 Gen.u8_ssz_append) (GenD.Skip_c r)] buf).
  - repeat constructor; apply put_as; intro; [reflexivity | apply vec_u8_append; lia].
  - vm_compute. discriminate.
Qed.

Theorem derive_Skip_ssz_bytes_len r :
  6 + llen (GenD.Skip_c r) <= usize_max ->
  GenD.Skip_ssz_bytes_len r = Ok (bytes_len T_Skip (v_Skip r)).
Proof.
  intro H. unfold GenD.Skip_ssz_bytes_len, GenD.Skip_enc_is_ssz_fixed_len. leaf_meta.
  change (8 / 8) with 1. rewrite (vec_u8_bytes_len (GenD.Skip_c r)) by lia.
  apply (container_bytes_len true [TUint 2; TList (TUint 1)] [VUint (GenD.Skip_a r); v_list (GenD.Skip_c r)] eq_refl).
  cbn [map sumN combine fst snd]. unfold field_len. cbn [e_is_fixed]. rewrite bytes_len_list_uint.
  change (e_fixed_len (TUint 2)) with 2. unfold BYTES_PER_LENGTH_OFFSET. lia.
Qed.

(** a property of every result follows a [?]-chain down to its last statement *)
Lemma bind_Ok_all {A B} (P : B -> Prop) (m : outcome A) (k : A -> outcome B) :
  (forall x r, k x = Ok r -> P r) -> forall r, (do x <- m; k x) = Ok r -> P r.
Proof. intros H r. destruct m; cbn [bind]; [apply H | discriminate | discriminate]. Qed.

(** decoding: the live fields are the model's; the skipped field is its [Default] *)
Theorem derive_Skip_from_ssz_bytes bs :
  omap v_Skip (GenD.Skip_from_ssz_bytes bs) = dec T_Skip bs /\
  (forall r, GenD.Skip_from_ssz_bytes bs = Ok r -> GenD.Skip_b r = 0).
Proof.
  unfold GenD.Skip_from_ssz_bytes, GenD.Skip_dec_is_ssz_fixed_len. leaf_meta. split.
  - apply (builder_path true [TUint 2; TList (TUint 1)]); [reflexivity|]. intro items.
    apply (decode_next_step VUint (TUint 2)); [exact gen_u16_from_ssz_bytes_eq|]. intros a its.
    apply (decode_next_step v_list (TList (TUint 1))); [exact vec_u8_from|]. intros c its1.
    reflexivity.
  - repeat (apply bind_Ok_all; intro). intros r [= <-]. reflexivity.
Qed.
(** ** [WrapSkip]: a transparent struct with a skipped field next to the wrapped one *)
Definition T_WrapSkip : ty := TWrap (TUint 4).
Definition v_WrapSkip (w : GenD.WrapSkip) : val := VUint (GenD.WrapSkip_inner w).

Theorem derive_WrapSkip_metadata :
  GenD.WrapSkip_enc_is_ssz_fixed_len = Ok (e_is_fixed T_WrapSkip) /\ GenD.WrapSkip_enc_ssz_fixed_len = Ok (e_fixed_len T_WrapSkip) /\
  GenD.WrapSkip_dec_is_ssz_fixed_len = Ok (d_is_fixed T_WrapSkip) /\ GenD.WrapSkip_dec_ssz_fixed_len = Ok (d_fixed_len T_WrapSkip).
Proof. repeat split; vm_compute; reflexivity. Qed.
Theorem derive_WrapSkip_ssz_append w buf : GenD.WrapSkip_ssz_append w buf = Ok (append T_WrapSkip (v_WrapSkip w) buf).
Proof. reflexivity. Qed.
Theorem derive_WrapSkip_ssz_bytes_len w : GenD.WrapSkip_ssz_bytes_len w = Ok (bytes_len T_WrapSkip (v_WrapSkip w)).
Proof. reflexivity. Qed.
Theorem derive_WrapSkip_from_ssz_bytes bs :
  omap v_WrapSkip (GenD.WrapSkip_from_ssz_bytes bs) = dec T_WrapSkip bs /\
  (forall w, GenD.WrapSkip_from_ssz_bytes bs = Ok w -> GenD.WrapSkip_tag w = 0).
Proof.
  unfold GenD.WrapSkip_from_ssz_bytes. split.
  - rewrite <- (gen_u32_from_ssz_bytes_eq bs : _ = dec T_WrapSkip bs). destruct (Gen.u32_from_ssz_bytes bs); reflexivity.
  - apply bind_Ok_all. intros x w [= <-]. reflexivity.
Qed.

(** ** [Fixed3]: an all-fixed container with a [bool] and a byte array *)
Definition T_Fixed3 : ty := TContainer true [TBool; TBytesN 4; TUint 8].
Definition v_Fixed3 (r : GenD.Fixed3) : val := VCont [VBool (GenD.Fixed3_a r); VBytes (GenD.Fixed3_b r); VUint (GenD.Fixed3_c r)].

Theorem derive_Fixed3_metadata :
  GenD.Fixed3_enc_is_ssz_fixed_len = Ok (e_is_fixed T_Fixed3) /\ GenD.Fixed3_enc_ssz_fixed_len = Ok (e_fixed_len T_Fixed3) /\
  GenD.Fixed3_dec_is_ssz_fixed_len = Ok (d_is_fixed T_Fixed3) /\ GenD.Fixed3_dec_ssz_fixed_len = Ok (d_fixed_len T_Fixed3).
Proof. repeat split; vm_compute; reflexivity. Qed.

Theorem derive_Fixed3_ssz_append r buf :
  GenD.Fixed3_ssz_append r buf = Ok (append T_Fixed3 (v_Fixed3 r) buf).
Proof.
  unfold GenD.Fixed3_ssz_append. leaf_meta.
  apply (container_append true [TBool; TBytesN 4; TUint 8] [VBool (GenD.Fixed3_a r); VBytes (GenD.Fixed3_b r); VUint (GenD.Fixed3_c r)]
           [put true Gen.bool_ssz_append (GenD.Fixed3_a r); put true (Gen.array_ssz_append 4) (GenD.Fixed3_b r);
            put true Gen.u64_ssz_append (GenD.Fixed3_c r)] buf).
  - repeat constructor; apply put_as; intro; [destruct (GenD.Fixed3_a r)| |]; reflexivity.
  - vm_compute. discriminate.
Qed.

Theorem derive_Fixed3_ssz_bytes_len r :
  GenD.Fixed3_ssz_bytes_len r = Ok (bytes_len T_Fixed3 (v_Fixed3 r)).
Proof. reflexivity. Qed.

Theorem derive_Fixed3_from_ssz_bytes bs :
  omap v_Fixed3 (GenD.Fixed3_from_ssz_bytes bs) = dec T_Fixed3 bs.
Proof.
  unfold GenD.Fixed3_from_ssz_bytes.
  change GenD.Fixed3_dec_is_ssz_fixed_len with (Ok true : outcome bool).
  change GenD.Fixed3_dec_ssz_fixed_len with (Ok 13 : outcome N).
  change (Gen.array_dec_ssz_fixed_len 4) with (Ok 4 : outcome N). leaf_meta.
  apply (split_path [TBool; TBytesN 4; TUint 8]); [reflexivity|].
  apply (split_step VBool TBool); [exact gen_bool_from_ssz_bytes_eq|]. intros a rest.
  apply (split_step VBytes (TBytesN 4)); [exact (gen_array_from_ssz_bytes_eq 4)|]. intros b rest1.
  apply (split_step VUint (TUint 8)); [exact gen_u64_from_ssz_bytes_eq|]. intros c rest2.
  reflexivity.
Qed.

(** ** [TE]: a transparent enum: the encoding is the bytes of the variant's payload, nothing else *)
Definition T_TE : ty := TTransEnum [TList (TUint 1); TList (TUint 2)].
Definition v_TE (u : GenD.TE) : val :=
  match u with GenD.TE_A x => VUnion 0 (v_list x) | GenD.TE_B x => VUnion 1 (v_list x) end.

Theorem derive_TE_metadata : GenD.TE_enc_is_ssz_fixed_len = Ok (e_is_fixed T_TE).
Proof. vm_compute. reflexivity. Qed.

Theorem derive_TE_ssz_append u buf :
  (match u with GenD.TE_A x => llen x <= usize_max | GenD.TE_B x => 2 * llen x <= usize_max end) ->
  GenD.TE_ssz_append u buf = Ok (append T_TE (v_TE u) buf).
Proof.
  intro H. destruct u as [x|x]; unfold GenD.TE_ssz_append; leaf_meta.
  - change (8 / 8) with 1. rewrite vec_u8_append by exact H. reflexivity.
  - change (16 / 8) with 2. rewrite vec_u16_append by exact H. reflexivity.
Qed.
Theorem derive_TE_ssz_bytes_len u :
  (match u with GenD.TE_A x => llen x <= usize_max | GenD.TE_B x => 2 * llen x <= usize_max end) ->
  GenD.TE_ssz_bytes_len u = Ok (bytes_len T_TE (v_TE u)).
Proof.
  intro H. destruct u as [x|x]; unfold GenD.TE_ssz_bytes_len; leaf_meta.
  - change (8 / 8) with 1. rewrite vec_u8_bytes_len by exact H. reflexivity.
  - change (16 / 8) with 2. rewrite vec_u16_bytes_len by exact H. reflexivity.
Qed.
(** decoding a transparent enum: the first variant whose decoder accepts (a panic of a variant's decoder is a panic) *)
Theorem derive_TE_from_ssz_bytes bs : omap v_TE (GenD.TE_from_ssz_bytes bs) = dec T_TE bs.
Proof.
  unfold GenD.TE_from_ssz_bytes, T_TE. rewrite dec_trans. cbn [map first_ok]. leaf_meta.
  change (8 / 8) with 1. change (16 / 8) with 2. rewrite <- (vec_u8_from bs), <- (vec_u16_from bs).
  destruct (Gen.vec_from_ssz_bytes true 1 Gen.u8_from_ssz_bytes bs) as [l| |]; cbn [omap]; try reflexivity.
  destruct (Gen.vec_from_ssz_bytes true 2 Gen.u16_from_ssz_bytes bs) as [l| |]; reflexivity.
Qed.

(** ** [Outer]: user types as fields (a fixed container, a variable container and a union) *)
Definition T_Outer : ty := TContainer true [T_FixedPair; T_Mixed; T_U2].
Definition v_Outer (r : GenD.Outer) : val := VCont [v_FixedPair (GenD.Outer_x r); v_Mixed (GenD.Outer_y r); v_U2 (GenD.Outer_z r)].

Theorem derive_Outer_metadata :
  GenD.Outer_enc_is_ssz_fixed_len = Ok (e_is_fixed T_Outer) /\ GenD.Outer_enc_ssz_fixed_len = Ok (e_fixed_len T_Outer) /\
  GenD.Outer_dec_is_ssz_fixed_len = Ok (d_is_fixed T_Outer) /\ GenD.Outer_dec_ssz_fixed_len = Ok (d_fixed_len T_Outer).
Proof. repeat split; vm_compute; reflexivity. Qed.

Theorem derive_Outer_ssz_append r buf :
  14 + llen (GenD.Mixed_b (GenD.Outer_y r)) + 2 * llen (GenD.Mixed_d (GenD.Outer_y r)) <= usize_max ->
  (match GenD.Outer_z r with GenD.U2_B x => llen x <= usize_max | _ => True end) ->
  11 + llen (append T_Mixed (v_Mixed (GenD.Outer_y r)) []) <= usize_max ->
  GenD.Outer_ssz_append r buf = Ok (append T_Outer (v_Outer r) buf).
Proof.
  intros H1 H2 H3. unfold GenD.Outer_ssz_append.
  change GenD.FixedPair_enc_is_ssz_fixed_len with (Ok true : outcome bool).
  change GenD.FixedPair_enc_ssz_fixed_len with (Ok 3 : outcome N).
  change GenD.Mixed_enc_is_ssz_fixed_len with (Ok false : outcome bool).
  change GenD.Mixed_enc_ssz_fixed_len with (Ok 4 : outcome N).
  change GenD.U2_enc_is_ssz_fixed_len with (Ok false : outcome bool). leaf_meta.
  apply (container_append true [T_FixedPair; T_Mixed; T_U2]
           [v_FixedPair (GenD.Outer_x r); v_Mixed (GenD.Outer_y r); v_U2 (GenD.Outer_z r)]
           [put true GenD.FixedPair_ssz_append (GenD.Outer_x r); put false GenD.Mixed_ssz_append (GenD.Outer_y r);
            put false GenD.U2_ssz_append (GenD.Outer_z r)] buf).
  - repeat constructor; apply put_as; intro;
      [apply derive_FixedPair_ssz_append | apply derive_Mixed_ssz_append; exact H1 | apply derive_U2_ssz_append; exact H2].
  - change (sumN (map e_fixed_len _)) with 11. cbn [map sumN combine removelast fst snd]. unfold var_len. cbn [fst snd].
    change (e_is_fixed T_FixedPair) with true. change (e_is_fixed T_Mixed) with false. cbv iota.
    rewrite llen_len in H3. unfold enc. lia.
Qed.

Theorem derive_Outer_ssz_bytes_len r :
  14 + llen (GenD.Mixed_b (GenD.Outer_y r)) + 2 * llen (GenD.Mixed_d (GenD.Outer_y r)) <= usize_max ->
  (match GenD.Outer_z r with GenD.U2_B x => llen x < usize_max | _ => True end) ->
  11 + bytes_len T_Mixed (v_Mixed (GenD.Outer_y r)) + bytes_len T_U2 (v_U2 (GenD.Outer_z r)) <= usize_max ->
  GenD.Outer_ssz_bytes_len r = Ok (bytes_len T_Outer (v_Outer r)).
Proof.
  intros H1 H2 H3. unfold GenD.Outer_ssz_bytes_len.
  change GenD.Outer_enc_is_ssz_fixed_len with (Ok false : outcome bool).
  change GenD.FixedPair_enc_is_ssz_fixed_len with (Ok true : outcome bool).
  change GenD.FixedPair_enc_ssz_fixed_len with (Ok 3 : outcome N).
  change GenD.Mixed_enc_is_ssz_fixed_len with (Ok false : outcome bool).
  change GenD.U2_enc_is_ssz_fixed_len with (Ok false : outcome bool). leaf_meta.
  rewrite (derive_Mixed_ssz_bytes_len (GenD.Outer_y r)) by exact H1. rewrite (derive_U2_ssz_bytes_len (GenD.Outer_z r)) by exact H2.
  apply (container_bytes_len true [T_FixedPair; T_Mixed; T_U2]
           [v_FixedPair (GenD.Outer_x r); v_Mixed (GenD.Outer_y r); v_U2 (GenD.Outer_z r)] eq_refl).
  cbn [map sumN combine fst snd]. unfold field_len.
  change (e_is_fixed T_FixedPair) with true. change (e_is_fixed T_Mixed) with false. change (e_is_fixed T_U2) with false.
  change (e_fixed_len T_FixedPair) with 3. cbv iota. unfold BYTES_PER_LENGTH_OFFSET. lia.
Qed.

Theorem derive_Outer_from_ssz_bytes bs :
  omap v_Outer (GenD.Outer_from_ssz_bytes bs) = dec T_Outer bs.
Proof.
  unfold GenD.Outer_from_ssz_bytes.
  change GenD.Outer_dec_is_ssz_fixed_len with (Ok false : outcome bool).
  change GenD.FixedPair_dec_is_ssz_fixed_len with (Ok true : outcome bool).
  change GenD.FixedPair_dec_ssz_fixed_len with (Ok 3 : outcome N).
  change GenD.Mixed_dec_is_ssz_fixed_len with (Ok false : outcome bool).
  change GenD.U2_dec_is_ssz_fixed_len with (Ok false : outcome bool). leaf_meta.
  apply (builder_path true [T_FixedPair; T_Mixed; T_U2]); [reflexivity|]. intro items.
  apply (decode_next_step v_FixedPair T_FixedPair); [exact derive_FixedPair_from_ssz_bytes|]. intros x its.
  apply (decode_next_step v_Mixed T_Mixed); [exact derive_Mixed_from_ssz_bytes|]. intros y its1.
  apply (decode_next_step v_U2 T_U2); [exact derive_U2_from_ssz_bytes|]. intros z its2.
  reflexivity.
Qed.

Print Assumptions derive2_metadata.
Print Assumptions derive_Skip_ssz_append.
Print Assumptions derive_Skip_ssz_bytes_len.
Print Assumptions derive_Skip_from_ssz_bytes.
Print Assumptions derive_WrapSkip_from_ssz_bytes.
Print Assumptions derive_Fixed3_ssz_append.
Print Assumptions derive_Fixed3_from_ssz_bytes.
Print Assumptions derive_TE_ssz_append.
Print Assumptions derive_TE_ssz_bytes_len.
Print Assumptions derive_TE_from_ssz_bytes.
Print Assumptions derive_Outer_ssz_append.
Print Assumptions derive_Outer_ssz_bytes_len.
Print Assumptions derive_Outer_from_ssz_bytes.
