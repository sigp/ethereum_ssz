(** * GenEquivSel: [compute_union_selectors] of the derive macro crate (the function that assigns union and tag
    selectors and rejects definitions with no variant or more than 128) is the model's [selectors_ok] /
    [union_selectors] (Derive.v). *)
From SSZ Require Import Base BaseFacts RustSem Offsets Types Derive Generated GenEquiv.
From Coq Require Import ZArith ZifyN ZifyBool ZifyNat Lia.
Open Scope N_scope.

Definition u8f (i : N) : outcome N := unwrap_or_panic (u8_try_from i).

(** [u8::try_from(i).unwrap()] over [0..n] panics as soon as the range reaches 256. *)
Lemma mapM_u8_range n :
  mapM u8f (map N.of_nat (seq 0 n)) = if N.of_nat n <=? 256 then Ok (map N.of_nat (seq 0 n)) else Panic.
Proof.
  induction n as [|n IH]; [reflexivity|].
  rewrite seq_S, map_app, mapM_app, IH. cbn [map mapM Nat.add]. unfold u8f, u8_try_from.
  destruct (N.leb_spec (N.of_nat n) 255), (N.leb_spec (N.of_nat n) 256), (N.leb_spec (N.of_nat (S n)) 256);
    try lia; reflexivity.
Qed.

Lemma last_error_seq m : last_error (map N.of_nat (seq 0 (S m))) = Some (N.of_nat m).
Proof. unfold last_error. rewrite seq_S, map_app, rev_app_distr. reflexivity. Qed.

Theorem gen_compute_union_selectors_eq n :
  Gen.compute_union_selectors (N.of_nat n) = if selectors_ok n then Ok (union_selectors n) else Panic.
Proof.
  unfold Gen.compute_union_selectors, selectors_ok, union_selectors. fold u8f. rewrite range_up_0, mapM_u8_range.
  destruct n as [|m]; [reflexivity|]. change (Nat.leb 1 (S m)) with true. cbn [andb].
  destruct (N.leb_spec (N.of_nat (S m)) 256) as [L|L]; cbn [bind].
  - rewrite last_error_seq. cbn [unwrap_or_panic bind]. change Gen.MAX_UNION_SELECTOR with 127.
    destruct (Nat.leb_spec (S m) 128), (N.leb_spec (N.of_nat m) 127); try lia; reflexivity.
  - rewrite (proj2 (Nat.leb_gt _ _)) by lia. reflexivity.
Qed.
Print Assumptions gen_compute_union_selectors_eq.

(** the two conversions of [UnionSelector] (a newtype over its byte) *)
Theorem gen_union_selector_conversions n m :
  Gen.union_selector_into_u8 n = Ok n /\ Gen.union_selector_eq_u8 n m = Ok (n =? m).
Proof. split; reflexivity. Qed.
Print Assumptions gen_union_selector_conversions.
