(** * Hex round trip and the serde form of bitfields (C18). *)
From SSZ Require Import Base BaseFacts Bitfield BitfieldFacts BitfieldOps BitfieldOpsFacts Hex.
From Coq Require Import ZArith ZifyN ZifyNat ZifyBool.
Open Scope N_scope.

Lemma digit_val_cases c :
  (48 <= c <= 57 /\ digit_val c = Some (c - 48)) \/ (97 <= c <= 102 /\ digit_val c = Some (c - 87)) \/
  (65 <= c <= 70 /\ digit_val c = Some (c - 55)) \/
  (~ (48 <= c <= 57 \/ 97 <= c <= 102 \/ 65 <= c <= 70) /\ digit_val c = None).
Proof.
  unfold digit_val.
  destruct ((48 <=? c) && (c <=? 57)) eqn:E1; [left; split; [lia|reflexivity]|].
  destruct ((97 <=? c) && (c <=? 102)) eqn:E2; [right; left; split; [lia|reflexivity]|].
  destruct ((65 <=? c) && (c <=? 70)) eqn:E3; [right; right; left; split; [lia|reflexivity]|].
  right; right; right. split; [lia|reflexivity].
Qed.

Lemma digit_val_hex_digit d : d < 16 -> digit_val (hex_digit d) = Some d.
Proof.
  intros H. unfold hex_digit, digit_val.
  destruct (d <? 10) eqn:E.
  - replace ((48 <=? 48 + d) && (48 + d <=? 57)) with true by lia. f_equal. lia.
  - replace ((48 <=? 87 + d) && (87 + d <=? 57)) with false by lia.
    replace ((97 <=? 87 + d) && (87 + d <=? 102)) with true by lia. f_equal. lia.
Qed.

Lemma bytes_of_hex_of_bytes bs : wfb bs -> bytes_of_hex (hex_of_bytes bs) = Some bs.
Proof.
  induction 1 as [|b bs Hb _ IH]; [reflexivity|].
  unfold hex_of_bytes in *. cbn [map concat app bytes_of_hex].
  rewrite !digit_val_hex_digit, IH by lia. do 2 f_equal. lia.
Qed.

Theorem hex_round_trip bs : wfb bs -> prefixed_hex_decode (hex_encode bs) = Some bs.
Proof. intros H. unfold hex_encode, prefixed_hex_decode. now apply bytes_of_hex_of_bytes. Qed.

(** the accepted strings: "0x" followed by an even number of hex digits *)
Theorem prefixed_hex_decode_some s bs :
  prefixed_hex_decode s = Some bs <-> exists h, s = 48 :: 120 :: h /\ bytes_of_hex h = Some bs.
Proof.
  split.
  - (* the pattern ['0' :: 'x' :: r] is a nest of matches on [s], its first two characters and
       their binary digits; every branch but one is [None] *)
    unfold prefixed_hex_decode. intros H.
    repeat match type of H with
           | match ?x with _ => _ end = Some _ => destruct x; try discriminate H
           end.
    eauto.
  - intros (h & -> & H). exact H.
Qed.

(* induction over the successful runs of [bytes_of_hex] *)
Lemma bytes_of_hex_ind (P : str -> bytes -> Prop) :
  P [] [] ->
  (forall a b r x y bs, digit_val a = Some x -> digit_val b = Some y -> P r bs ->
                        P (a :: b :: r) (16 * x + y :: bs)) ->
  forall s bs, bytes_of_hex s = Some bs -> P s bs.
Proof.
  intros H0 H2. fix IH 1. intros [|a [|b r]] bs H; cbn [bytes_of_hex] in H.
  - injection H as <-. exact H0.
  - discriminate.
  - destruct (digit_val a) as [x|] eqn:Ex; [|discriminate].
    destruct (digit_val b) as [y|] eqn:Ey; [|discriminate].
    destruct (bytes_of_hex r) as [bs'|] eqn:E; [|discriminate].
    injection H as <-. apply H2; auto.
Qed.

Lemma digit_val_lt c x : digit_val c = Some x -> x < 16.
Proof.
  destruct (digit_val_cases c) as [[H ->]|[[H ->]|[[H ->]|[H ->]]]]; intros [= <-]; lia.
Qed.

Lemma bytes_of_hex_even s bs : bytes_of_hex s = Some bs -> length s = (2 * length bs)%nat.
Proof.
  revert s bs. apply bytes_of_hex_ind; [reflexivity|].
  intros a b r x y bs _ _ IH. cbn [length]. lia.
Qed.

Lemma wfb_bytes_of_hex s bs : bytes_of_hex s = Some bs -> wfb bs.
Proof.
  revert s bs. apply bytes_of_hex_ind; [constructor|].
  intros a b r x y bs Hx Hy IH. apply digit_val_lt in Hx, Hy. constructor; [lia | exact IH].
Qed.

(** Serde round trip of every bitfield; the serialized form is "0x" + lowercase hex of SSZ. *)
Theorem serde_round_trip fl b bits : R fl b bits -> serde_de fl (serde_ser fl b) = Ok b.
Proof.
  intros HR. unfold serde_de, serde_ser.
  destruct (decode_ssz_round_trip fl b bits HR) as [Hw Hd].
  now rewrite (hex_round_trip _ Hw).
Qed.

Theorem serde_ser_form fl b : serde_ser fl b = 48 :: 120 :: hex_of_bytes (i_ssz fl b).
Proof. reflexivity. Qed.

(** Deserializing succeeds exactly on "0x" + even-length hex of a byte string that SSZ decoding
    accepts, and yields the same value. *)
Theorem serde_de_ok fl s b :
  serde_de fl s = Ok b <->
  exists h bs, s = 48 :: 120 :: h /\ bytes_of_hex h = Some bs /\ i_decode fl bs = Ok b.
Proof.
  unfold serde_de. split.
  - destruct (prefixed_hex_decode s) as [bs|] eqn:E; [|discriminate].
    intros Hd. apply prefixed_hex_decode_some in E as (h & -> & Hh). eauto.
  - intros (h & bs & -> & Hh & Hd). cbn [prefixed_hex_decode]. now rewrite Hh.
Qed.

(** hex digits are exactly [0-9a-fA-F] *)
Theorem digit_val_some c :
  (exists x, digit_val c = Some x) <->
  (48 <= c <= 57) \/ (97 <= c <= 102) \/ (65 <= c <= 70).
Proof.
  destruct (digit_val_cases c) as [[H ->]|[[H ->]|[[H ->]|[H ->]]]].
  1-3: split; [intros _; lia | eauto].
  split; [intros [x [=]] | intros H'; contradiction].
Qed.
