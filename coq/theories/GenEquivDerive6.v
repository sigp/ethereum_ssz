(** * GenEquivDerive6: a union whose first payload type re-appears after a different one
    ([enum U3 { A(u8), B(u16), C(u8) }]): the selectors the derive macro writes and reads follow the declaration
    order (0, 1, 2), whatever the payload types are. *)
From SSZ Require Import Base RustSem Offsets Encoder Builder Types Codec CodecUnfold BaseFacts OffsetsFacts
     Generated GenEquiv GenEquivDec GenEquivEnc GenProps GeneratedDerive GenEquivDerive.
From Coq Require Import ZArith ZifyN ZifyBool ZifyNat Lia.
Open Scope N_scope.

Definition T_U3 : ty := TUnion [TUint 1; TUint 2; TUint 1].
Definition v_U3 (u : GenD.U3) : val :=
  match u with GenD.U3_A x => VUnion 0 (VUint x) | GenD.U3_B x => VUnion 1 (VUint x) | GenD.U3_C x => VUnion 2 (VUint x) end.

Theorem derive_U3_metadata :
  GenD.U3_enc_is_ssz_fixed_len = Ok (e_is_fixed T_U3) /\ GenD.U3_dec_is_ssz_fixed_len = Ok (d_is_fixed T_U3).
Proof. split; reflexivity. Qed.

Theorem derive_U3_ssz_append u buf : GenD.U3_ssz_append u buf = Ok (append T_U3 (v_U3 u) buf).
Proof. destruct u as [x|x|x]; reflexivity. Qed.

Theorem derive_U3_ssz_bytes_len u : GenD.U3_ssz_bytes_len u = Ok (bytes_len T_U3 (v_U3 u)).
Proof. destruct u as [x|x|x]; reflexivity. Qed.

Theorem derive_U3_from_ssz_bytes bs : omap v_U3 (GenD.U3_from_ssz_bytes bs) = dec T_U3 bs.
Proof.
  unfold GenD.U3_from_ssz_bytes. change (if true then ?a else ?b) with a.
  change (negb (127 =? Gen.MAX_UNION_SELECTOR)) with false. cbv iota beta.
  unfold T_U3. rewrite dec_union_chain, gen_split_union_bytes_eq.
  destruct (split_union_bytes bs) as [[sel body]| |]; cbn [bind omap map sel_chain N.of_nat Pos.of_succ_nat Pos.succ]; try reflexivity.
  destruct (sel =? 0).
  - rewrite <- (gen_u8_from_ssz_bytes_eq body). destruct (Gen.u8_from_ssz_bytes body); reflexivity.
  - destruct (sel =? 1).
    + rewrite <- (gen_u16_from_ssz_bytes_eq body). destruct (Gen.u16_from_ssz_bytes body); reflexivity.
    + destruct (sel =? 2); [|reflexivity].
      rewrite <- (gen_u8_from_ssz_bytes_eq body). destruct (Gen.u8_from_ssz_bytes body); reflexivity.
Qed.

(** C15 for this definition: the selector written for a variant is its declaration index, and only 0, 1, 2 are read *)
Theorem Src_C15_U3_selectors u buf :
  exists rest, GenD.U3_ssz_append u buf = Ok (buf ++ (match u with GenD.U3_A _ => 0 | GenD.U3_B _ => 1 | GenD.U3_C _ => 2 end) :: rest).
Proof. rewrite derive_U3_ssz_append. destruct u as [x|x|x]; eexists; unfold T_U3; cbn [v_U3 append]; rewrite <- app_assoc; reflexivity. Qed.

Print Assumptions derive_U3_metadata.
Print Assumptions derive_U3_ssz_append.
Print Assumptions derive_U3_ssz_bytes_len.
Print Assumptions derive_U3_from_ssz_bytes.
Print Assumptions Src_C15_U3_selectors.
