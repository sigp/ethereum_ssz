(** * GenEquivDec: the [Decode] impls that [rs2v] derives from the Rust text of ssz/src/decode/impls.rs
    ([Generated.v]: the unsigned integers (from the [impl_decodable_for_uint!] macro, expanded), [bool],
    [NonZeroUsize], [Option<T>], [Arc<T>], [[u8; N]], the alloy types, [Vec<T>], [SmallVec], [BTreeSet<T>],
    [decode_list_of_variable_length_items]), the [TryFromIter] impls, and the rest of [SszDecoderBuilder] /
    [SszDecoder] are the corresponding cases of the type-generic model decoder [Codec.dec] and of [Builder.v].

    Trait-generic code is translated in dictionary-passing style: [impl<T: Decode> Decode for
    Option<T>] becomes a definition taking [T::from_ssz_bytes] (and [T::is_ssz_fixed_len],
    [T::ssz_fixed_len] when used) as parameters.  Instantiating the dictionary with the model's
    own [dec t] / [d_is_fixed t] / [d_fixed_len t] gives the recursive case of [dec]: the model's
    recursion over type expressions is the source's trait resolution. *)
From SSZ Require Import Base RustSem Offsets Bitfield Types Builder Codec BaseFacts OffsetsFacts ListDecFacts Generated GenEquiv.
From Coq Require Import ZArith ZifyN ZifyBool ZifyNat Lia.
Open Scope N_scope.

(** The fixed-length leaves (unsigned integers, byte arrays, the alloy types): each impl compares the length with
    [ssz_fixed_len()] and then converts the slice ([try_into().unwrap()], [from_slice], [from_le_slice]); the
    conversion would panic on a slice of the wrong length, which the comparison has excluded. *)
Lemma len_guarded {A} (f : A -> val) (k : N) (bs : bytes) (body : outcome A) (x : A) :
  (llen bs =? k = true -> body = Ok x) ->
  omap f (if negb (llen bs =? k) then Err else body) = if len bs =? k then Ok (f x) else Err.
Proof. rewrite llen_len. destruct (len bs =? k); intro H; [rewrite H|]; reflexivity. Qed.

Theorem gen_u8_from_ssz_bytes_eq bs : omap VUint (Gen.u8_from_ssz_bytes bs) = dec (TUint 1) bs.
Proof. apply (len_guarded VUint (8 / 8)). intros ->. reflexivity. Qed.
Theorem gen_u16_from_ssz_bytes_eq bs : omap VUint (Gen.u16_from_ssz_bytes bs) = dec (TUint 2) bs.
Proof. apply (len_guarded VUint (16 / 8)). intros ->. reflexivity. Qed.
Theorem gen_u32_from_ssz_bytes_eq bs : omap VUint (Gen.u32_from_ssz_bytes bs) = dec (TUint 4) bs.
Proof. apply (len_guarded VUint (32 / 8)). intros ->. reflexivity. Qed.
Theorem gen_u64_from_ssz_bytes_eq bs : omap VUint (Gen.u64_from_ssz_bytes bs) = dec (TUint 8) bs.
Proof. apply (len_guarded VUint (64 / 8)). intros ->. reflexivity. Qed.
Theorem gen_u128_from_ssz_bytes_eq bs : omap VUint (Gen.u128_from_ssz_bytes bs) = dec (TUint 16) bs.
Proof. apply (len_guarded VUint (128 / 8)). intros ->. reflexivity. Qed.
Theorem gen_usize_from_ssz_bytes_eq bs : omap VUint (Gen.usize_from_ssz_bytes bs) = dec (TUint 8) bs.
Proof. apply (len_guarded VUint (64 / 8)). intros ->. reflexivity. Qed.

Theorem gen_uint_metadata :
  Gen.u8_dec_is_ssz_fixed_len = Ok (d_is_fixed (TUint 1)) /\ Gen.u8_dec_ssz_fixed_len = Ok (d_fixed_len (TUint 1)) /\
  Gen.u16_dec_is_ssz_fixed_len = Ok (d_is_fixed (TUint 2)) /\ Gen.u16_dec_ssz_fixed_len = Ok (d_fixed_len (TUint 2)) /\
  Gen.u32_dec_is_ssz_fixed_len = Ok (d_is_fixed (TUint 4)) /\ Gen.u32_dec_ssz_fixed_len = Ok (d_fixed_len (TUint 4)) /\
  Gen.u64_dec_is_ssz_fixed_len = Ok (d_is_fixed (TUint 8)) /\ Gen.u64_dec_ssz_fixed_len = Ok (d_fixed_len (TUint 8)) /\
  Gen.u128_dec_is_ssz_fixed_len = Ok (d_is_fixed (TUint 16)) /\ Gen.u128_dec_ssz_fixed_len = Ok (d_fixed_len (TUint 16)) /\
  Gen.usize_dec_is_ssz_fixed_len = Ok (d_is_fixed (TUint 8)) /\ Gen.usize_dec_ssz_fixed_len = Ok (d_fixed_len (TUint 8)).
Proof. repeat split; reflexivity. Qed.

Theorem gen_array_from_ssz_bytes_eq n bs :
  omap VBytes (Gen.array_from_ssz_bytes (N.of_nat n) bs) = dec (TBytesN n) bs.
Proof. apply (len_guarded VBytes (N.of_nat n)). intros ->. reflexivity. Qed.
Theorem gen_fixedbytes_from_ssz_bytes_eq n bs :
  omap VBytes (Gen.fixedbytes_from_ssz_bytes (N.of_nat n) bs) = dec (TBytesN n) bs.
Proof. apply (len_guarded VBytes (N.of_nat n)). intros ->. reflexivity. Qed.
Theorem gen_address_from_ssz_bytes_eq bs : omap VBytes (Gen.address_from_ssz_bytes bs) = dec (TBytesN 20) bs.
Proof. apply (len_guarded VBytes 20). unfold from_slice_exact. intros ->. reflexivity. Qed.
Theorem gen_bloom_from_ssz_bytes_eq bs : omap VBytes (Gen.bloom_from_ssz_bytes bs) = dec (TBytesN 256) bs.
Proof. apply (len_guarded VBytes 256). unfold from_slice_exact. intros ->. reflexivity. Qed.
Theorem gen_alloy_bytes_from_ssz_bytes_eq bs : omap VBytes (Gen.alloy_bytes_from_ssz_bytes bs) = dec TByteList bs.
Proof. reflexivity. Qed.

(** ruint's [from_le_slice] panics when the value does not fit; after the length check it always fits,
    because the slice consists of bytes *)
Lemma uint_from_le_slice_fits k bs : wfb bs -> llen bs =? k = true -> uint_from_le_slice k bs = Ok (le_val bs).
Proof.
  intros Hw E. apply N.eqb_eq in E. subst k. unfold uint_from_le_slice, llen.
  rewrite (proj2 (N.ltb_lt _ _) (le_val_bound bs Hw)). reflexivity.
Qed.

Theorem gen_u256_from_ssz_bytes_eq bs : wfb bs -> omap VUint (Gen.u256_from_ssz_bytes bs) = dec (TUint 32) bs.
Proof. intro Hw. apply (len_guarded VUint 32). intro E. rewrite (uint_from_le_slice_fits 32 bs Hw E). reflexivity. Qed.
Theorem gen_alloy_u128_from_ssz_bytes_eq bs : wfb bs -> omap VUint (Gen.alloy_u128_from_ssz_bytes bs) = dec (TUint 16) bs.
Proof. intro Hw. apply (len_guarded VUint 16). intro E. rewrite (uint_from_le_slice_fits 16 bs Hw E). reflexivity. Qed.

Theorem gen_bool_from_ssz_bytes_eq bs : omap VBool (Gen.bool_from_ssz_bytes bs) = dec TBool bs.
Proof.
  destruct bs as [|b [|c r]]; [reflexivity | | ].
  - cbn. destruct (b =? 0); [reflexivity|]. destruct (b =? 1); reflexivity.
  - unfold Gen.bool_from_ssz_bytes, Gen.bool_dec_ssz_fixed_len. cbn [bind].
    replace (llen (b :: c :: r) =? 1) with false by (unfold llen; cbn [length]; lia). reflexivity.
Qed.
Theorem gen_bool_metadata :
  Gen.bool_dec_is_ssz_fixed_len = Ok (d_is_fixed TBool) /\ Gen.bool_dec_ssz_fixed_len = Ok (d_fixed_len TBool).
Proof. split; reflexivity. Qed.

Theorem gen_nonzero_from_ssz_bytes_eq bs : omap VUint (Gen.nonzero_from_ssz_bytes bs) = dec TNonZero bs.
Proof.
  unfold Gen.nonzero_from_ssz_bytes. pose proof (gen_usize_from_ssz_bytes_eq bs) as H. cbn [dec] in *.
  change (N.of_nat 8) with 8 in H.
  destruct (Gen.usize_from_ssz_bytes bs) as [x| |]; destruct (len bs =? 8); cbn [omap bind] in *; try discriminate; try reflexivity.
  injection H as ->. unfold nonzero_new. destruct (le_val bs =? 0); reflexivity.
Qed.
Theorem gen_nonzero_metadata :
  Gen.nonzero_dec_is_ssz_fixed_len = Ok (d_is_fixed TNonZero) /\ Gen.nonzero_dec_ssz_fixed_len = Ok (d_fixed_len TNonZero).
Proof. split; reflexivity. Qed.

Definition opt_val (o : option val) : val := match o with Some v => VSome v | None => VNone end.

Lemma option_from_ssz_bytes_eq {A} (d : bytes -> outcome A) bs :
  Gen.option_from_ssz_bytes d bs =
  do p <- split_union_bytes bs;
  let (sel, body) := p in
  if sel =? 0 then (match body with [] => Ok None | _ => Err end)
  else if sel =? 1 then omap Some (d body) else Err.
Proof.
  unfold Gen.option_from_ssz_bytes. rewrite gen_split_union_bytes_eq.
  destruct (split_union_bytes bs) as [[sel body]| |]; [cbn [bind] | reflexivity | reflexivity].
  destruct (sel =? 0); [destruct body|]; reflexivity.
Qed.

Theorem gen_option_from_ssz_bytes_eq t bs :
  omap opt_val (Gen.option_from_ssz_bytes (dec t) bs) = dec (TOption t) bs.
Proof.
  rewrite option_from_ssz_bytes_eq. cbn [dec].
  destruct (split_union_bytes bs) as [[sel body]| |]; [cbn [bind] | reflexivity | reflexivity].
  destruct (sel =? 0); [destruct body; reflexivity|]. destruct (sel =? 1); [|reflexivity].
  destruct (dec t body); reflexivity.
Qed.
Theorem gen_option_metadata : Gen.option_dec_is_ssz_fixed_len = Ok false. Proof. reflexivity. Qed.

Theorem gen_arc_from_ssz_bytes_eq t bs : Gen.arc_from_ssz_bytes (dec t) bs = dec (TWrap t) bs.
Proof. unfold Gen.arc_from_ssz_bytes. cbn [dec]. destruct (dec t bs); reflexivity. Qed.
Theorem gen_arc_metadata t :
  Gen.arc_dec_is_ssz_fixed_len (d_is_fixed t) = Ok (d_is_fixed (TWrap t)) /\
  Gen.arc_dec_ssz_fixed_len (d_fixed_len t) = Ok (d_fixed_len (TWrap t)).
Proof. split; reflexivity. Qed.

Lemma if_llen_0 {A B} (l : list A) (x y : B) : (if llen l =? 0 then x else y) = match l with [] => x | _ => y end.
Proof. destruct l; reflexivity. Qed.

(** [decode_list_of_variable_length_items]: the stateful closure of the source is the model's item
    iterator, and the container's [try_from_iter] is applied to what the iterator yields *)
Section ListDecoder.
  Context {A : Type} (d : bytes -> outcome A) (bs : bytes) (first num : N).

  (** the closure [|i| { .. }] of the source with its captured [offset] as an explicit state *)
  Definition item_closure (offset i : N) : outcome (A * N) :=
    if i =? num then
      let slice_option := get_from bs offset in
      do q <- ok_or slice_option; let slice := q in do r <- d slice; Ok (r, offset)
    else
      let start := offset in
      do t7 <- usize_mul i Gen.BYTES_PER_LENGTH_OFFSET;
      do t8 <- index_from bs t7;
      do q9 <- Gen.read_offset t8;
      let next_offset := q9 in
      do q10 <- Gen.sanitize_offset next_offset (Some offset) (llen bs) (Some first);
      let offset := q10 in
      let slice_option := get_range bs start offset in
      do q11 <- ok_or slice_option; let slice := q11 in do r <- d slice; Ok (r, offset).

  (** the closure computes the slice and the offset that ends it as the model's iterator does ([lv_sao]), then decodes
      the slice; [i * 4] cannot overflow, every [i] the loop reaches being at most [num] *)
  Lemma item_closure_eq offset i : 4 * i <= usize_max ->
    item_closure offset i = do p <- lv_sao bs first num i offset; do r <- d (fst p); Ok (r, snd p).
  Proof.
    intro H. unfold item_closure, lv_sao. destruct (i =? num); [destruct (get_from bs offset); reflexivity|].
    change Gen.BYTES_PER_LENGTH_OFFSET with BYTES_PER_LENGTH_OFFSET.
    rewrite usize_mul_ok by (unfold BYTES_PER_LENGTH_OFFSET; lia). cbn [bind].
    destruct (index_from bs _) as [rest| |]; [cbn [bind] | reflexivity..].
    rewrite gen_read_offset_eq. destruct (read_offset rest) as [next| |]; [cbn [bind] | reflexivity..].
    rewrite gen_sanitize_offset_eq, llen_len.
    destruct (sanitize_offset next (Some offset) (len bs) (Some first)) as [off'| |]; [cbn [bind] | reflexivity..].
    destruct (get_range bs offset off'); reflexivity.
  Qed.

  Lemma items_eq : 4 * num <= usize_max -> forall fuel i offset,
    N.of_nat fuel + i = num + 1 ->
    omap fst (map_state item_closure (range_up i (num + 1)) offset)
    = fst (lv_items d bs first num fuel i offset).
  Proof.
    intros Hmax. induction fuel as [|fuel IH]; intros i offset Hf.
    - rewrite range_up_nil by lia. reflexivity.
    - rewrite range_up_cons, lv_items_S by lia. cbn [map_state]. rewrite item_closure_eq by lia.
      destruct (lv_sao bs first num i offset) as [[s off']| |]; [cbn [bind fst snd] | reflexivity..].
      destruct (d s) as [x| |]; [cbn [bind fst snd] | reflexivity..].
      rewrite <- IH by lia. destruct (map_state item_closure _ off') as [[xs o]| |]; reflexivity.
  Qed.
End ListDecoder.

Lemma decode_list_collect {A B} (d : bytes -> outcome A) (c : list A -> outcome B) bs max_len :
  len bs <= usize_max ->
  Gen.decode_list_of_variable_length_items d c bs max_len = bind (decode_list_var d CVec bs max_len) c.
Proof.
  intro Hphys. unfold Gen.decode_list_of_variable_length_items, decode_list_var, decode_list_var_full.
  rewrite if_llen_0. destruct bs as [|b0 br] eqn:Ebs; [reflexivity|]. rewrite <- Ebs in *. clear Ebs b0 br.
  rewrite gen_read_offset_eq. destruct (read_offset bs) as [first| |]; [cbn [bind] | reflexivity | reflexivity].
  rewrite gen_sanitize_offset_eq, llen_len.
  destruct (sanitize_offset first None (len bs) (Some first)) as [x| |] eqn:Es; [cbn [bind] | reflexivity | reflexivity].
  apply sanitize_offset_first in Es as [_ Hfirst].
  change Gen.BYTES_PER_LENGTH_OFFSET with 4. change BYTES_PER_LENGTH_OFFSET with 4.
  unfold usize_rem, usize_div. cbn [N.eqb bind].
  destruct (negb (first mod 4 =? 0) || (first <? 4)) eqn:Ec; [reflexivity|].
  destruct (is_some_and max_len (fun m => m <? first / 4)); [reflexivity|]. cbn [fst snd].
  (* [4 <= first <= len bs]: there is at least one item, and [4 * (first / 4)] fits a [usize] *)
  apply Bool.orb_false_elim in Ec as [_ Ec]. apply N.ltb_ge in Ec.
  pose proof (N.mul_div_le first 4 ltac:(discriminate)) as Hnum.
  pose proof (N.div_le_lower_bound first 4 1 ltac:(discriminate) Ec) as Hnum1.
  rewrite <- (items_eq d bs first (first / 4)) by lia.
  change (range_up 1 (first / 4 + 1)) with (range_incl 1 (first / 4)).
  destruct (map_state _ (range_incl 1 (first / 4)) first) as [[xs o]| |]; reflexivity.
Qed.

Theorem gen_decode_list_container_eq {A B} (d : bytes -> outcome A) (c : list A -> outcome B) bs max_len :
  len bs <= usize_max ->
  Gen.decode_list_of_variable_length_items d c bs max_len
  = match bs with [] => c [] | _ => bind (decode_list_var d CVec bs max_len) c end.
Proof. intro H. rewrite decode_list_collect by exact H. destruct bs; reflexivity. Qed.

Theorem gen_decode_list_vec_eq {A} (d : bytes -> outcome A) bs max_len :
  len bs <= usize_max ->
  Gen.decode_list_of_variable_length_items d vec_try_from_iter bs max_len = decode_list_var d CVec bs max_len.
Proof. intro H. rewrite decode_list_collect by exact H. destruct (decode_list_var d CVec bs max_len); reflexivity. Qed.

(** [TryFromIter] / [TryCollect] (decode/try_from_iter.rs): the four impls are std's [from_iter] of the
    collection (for [Vec]: [with_capacity] of the iterator's upper size hint, then [extend]) and never fail;
    [try_collect] hands the iterator to the container's impl *)
Theorem gen_tfi_vec_try_from_iter_eq {A} (l : list A) : Gen.tfi_vec_try_from_iter l = vec_try_from_iter l.
Proof. reflexivity. Qed.
Theorem gen_tfi_smallvec_try_from_iter_eq {A} n (l : list A) : Gen.tfi_smallvec_try_from_iter n l = smallvec_try_from_iter l.
Proof. reflexivity. Qed.
Theorem gen_tfi_btreeset_try_from_iter_eq {A} cmp (l : list A) : Gen.tfi_btreeset_try_from_iter cmp l = btreeset_try_from_iter cmp l.
Proof. reflexivity. Qed.
Theorem gen_tfi_btreemap_try_from_iter_eq {K V} cmp (l : list (K * V)) : Gen.tfi_btreemap_try_from_iter cmp l = btreemap_try_from_iter cmp l.
Proof. reflexivity. Qed.
Theorem gen_try_collect_eq {A C} (f : list A -> outcome C) l : Gen.try_collect f l = f l.
Proof. reflexivity. Qed.
(** [Vec] and [SmallVec] keep every item in order *)
Theorem gen_tfi_vec_is_identity {A} (l : list A) : Gen.tfi_vec_try_from_iter l = Ok l.
Proof. reflexivity. Qed.
Theorem gen_tfi_smallvec_is_identity {A} n (l : list A) : Gen.tfi_smallvec_try_from_iter n l = Ok l.
Proof. reflexivity. Qed.

Lemma mapM_chunks_eq {A} (d : bytes -> outcome A) bs n : mapM d (chunks_n bs n) = mapM d (chunks (N.to_nat n) bs).
Proof. reflexivity. Qed.

Theorem gen_vec_from_ssz_bytes_eq {A} (f : bool) (l : N) (d : bytes -> outcome A) bs :
  len bs <= usize_max ->
  Gen.vec_from_ssz_bytes f l d bs = dec_seq f l d bs.
Proof.
  intro H. unfold Gen.vec_from_ssz_bytes, dec_seq. rewrite if_llen_0, gen_decode_list_vec_eq by exact H. reflexivity.
Qed.

Theorem gen_vec_is_dec_TList t bs :
  len bs <= usize_max ->
  omap VList (Gen.vec_from_ssz_bytes (d_is_fixed t) (d_fixed_len t) (dec t) bs) = dec (TList t) bs.
Proof. intro H. rewrite gen_vec_from_ssz_bytes_eq by exact H. reflexivity. Qed.

Theorem gen_vec_metadata : Gen.vec_dec_is_ssz_fixed_len = Ok false. Proof. reflexivity. Qed.

Theorem gen_smallvec_from_ssz_bytes_eq {A} n (f : bool) (l : N) (d : bytes -> outcome A) bs :
  len bs <= usize_max ->
  Gen.smallvec_from_ssz_bytes n f l d bs = dec_seq f l d bs.
Proof.
  intro H. unfold Gen.smallvec_from_ssz_bytes, dec_seq. rewrite if_llen_0, decode_list_collect by exact H.
  destruct (decode_list_var d CVec bs None); reflexivity.
Qed.

Theorem gen_smallvec_is_dec_TList n t bs :
  len bs <= usize_max ->
  omap VList (Gen.smallvec_from_ssz_bytes n (d_is_fixed t) (d_fixed_len t) (dec t) bs) = dec (TList t) bs.
Proof. intro H. rewrite gen_smallvec_from_ssz_bytes_eq by exact H. reflexivity. Qed.

Lemma btreeset_from_ssz_bytes_eq {A} (f : bool) (l : N) (d : bytes -> outcome A) cmp bs :
  len bs <= usize_max ->
  Gen.btreeset_from_ssz_bytes f l d cmp bs = omap (btreeset_from_iter cmp) (dec_seq f l d bs).
Proof.
  intro H. unfold Gen.btreeset_from_ssz_bytes, dec_seq. rewrite if_llen_0, decode_list_collect by exact H.
  destruct bs; [reflexivity|]. destruct f; [destruct (l =? 0); reflexivity|].
  destruct (decode_list_var d CVec _ None); reflexivity.
Qed.

Lemma ord_insert_is_insert_entry e l : ord_insert val_cmp e l = insert_entry false e l.
Proof. induction l as [|x r IH]; [reflexivity|]. cbn [ord_insert insert_entry entry_key]. rewrite IH. reflexivity. Qed.

Lemma btreeset_from_iter_is_collect l : btreeset_from_iter val_cmp l = collect_entries false l.
Proof.
  unfold btreeset_from_iter, collect_entries. generalize (@nil val).
  induction l as [|x r IH]; intro acc; cbn [fold_left]; [reflexivity|]. rewrite ord_insert_is_insert_entry. apply IH.
Qed.

Theorem gen_btreeset_is_dec_TSet t bs :
  len bs <= usize_max ->
  omap VList (Gen.btreeset_from_ssz_bytes (d_is_fixed t) (d_fixed_len t) (dec t) val_cmp bs) = dec (TSet t) bs.
Proof.
  intro H. rewrite btreeset_from_ssz_bytes_eq by exact H. cbn [dec].
  destruct (dec_seq _ _ _ bs); [cbn [omap]; rewrite btreeset_from_iter_is_collect|..]; reflexivity.
Qed.

Theorem gen_builder_new_eq bs :
  omap (fun s => (Gen.SszDecoderBuilder_bytes s, st_abs s)) (Gen.builder_new bs) = Ok (bs, builder_new).
Proof. reflexivity. Qed.

Theorem gen_builder_register_type_eq s f l :
  omap (fun s' => (Gen.SszDecoderBuilder_bytes s', st_abs s')) (Gen.builder_register_type f l s)
  = omap (fun st => (Gen.SszDecoderBuilder_bytes s, st)) (register (Gen.SszDecoderBuilder_bytes s) (st_abs s) f l).
Proof.
  unfold Gen.builder_register_type. rewrite <- gen_builder_register_eq.
  destruct (Gen.builder_register s f l); reflexivity.
Qed.

(** [register_anonymous_variable_length_item]: a function-local type whose impl says "variable" *)
Theorem gen_builder_register_anonymous_eq s :
  omap (fun s' => (Gen.SszDecoderBuilder_bytes s', st_abs s')) (Gen.builder_register_anonymous s)
  = omap (fun st => (Gen.SszDecoderBuilder_bytes s, st)) (register (Gen.SszDecoderBuilder_bytes s) (st_abs s) false BYTES_PER_LENGTH_OFFSET).
Proof.
  rewrite <- gen_builder_register_type_eq. unfold Gen.builder_register_anonymous, Gen.decode_default_ssz_fixed_len. cbn [bind].
  destruct (Gen.builder_register_type false _ s); reflexivity.
Qed.

Theorem gen_builder_build_eq s :
  omap Gen.SszDecoder_items (Gen.builder_build s) = finalize (Gen.SszDecoderBuilder_bytes s) (st_abs s).
Proof.
  unfold Gen.builder_build. rewrite <- gen_builder_finalize_eq.
  destruct (Gen.builder_finalize s); reflexivity.
Qed.

(** [decode_next_with(f)]: [f(self.items.remove(0))]; the slices are handed out in order *)
Theorem gen_decoder_decode_next_with_eq {A} items (f : bytes -> outcome A) :
  omap (fun p => (fst p, Gen.SszDecoder_items (snd p))) (Gen.decoder_decode_next_with {| Gen.SszDecoder_items := items |} f)
  = decode_next items f.
Proof.
  destruct items as [|s r]; [reflexivity|].
  unfold Gen.decoder_decode_next_with, decode_next. cbn. destruct (f s); reflexivity.
Qed.

Theorem gen_decoder_decode_next_eq {A} items (d : bytes -> outcome A) :
  omap (fun p => (fst p, Gen.SszDecoder_items (snd p))) (Gen.decoder_decode_next d {| Gen.SszDecoder_items := items |})
  = decode_next items d.
Proof.
  unfold Gen.decoder_decode_next. rewrite <- gen_decoder_decode_next_with_eq.
  destruct (Gen.decoder_decode_next_with _ _) as [[x s']| |]; reflexivity.
Qed.

Print Assumptions gen_u64_from_ssz_bytes_eq.
Print Assumptions gen_bool_from_ssz_bytes_eq.
Print Assumptions gen_nonzero_from_ssz_bytes_eq.
Print Assumptions gen_option_from_ssz_bytes_eq.
Print Assumptions gen_arc_from_ssz_bytes_eq.
Print Assumptions gen_array_from_ssz_bytes_eq.
Print Assumptions gen_u256_from_ssz_bytes_eq.
Print Assumptions gen_decode_list_vec_eq.
Print Assumptions gen_decode_list_container_eq.
Print Assumptions gen_smallvec_is_dec_TList.
Print Assumptions gen_btreeset_is_dec_TSet.
Print Assumptions gen_tfi_vec_try_from_iter_eq.
Print Assumptions gen_tfi_btreeset_try_from_iter_eq.
Print Assumptions gen_tfi_btreemap_try_from_iter_eq.
Print Assumptions gen_try_collect_eq.
Print Assumptions gen_vec_is_dec_TList.
Print Assumptions gen_builder_build_eq.
Print Assumptions gen_decoder_decode_next_eq.
Print Assumptions gen_builder_register_anonymous_eq.
