(** * GenEquivDerive5: derived containers with bitfield fields ([BitVector<U9>], [BitList<U16>]): the expanded
    impls call the crate's translated bitfield codec; for field values that satisfy the bitfield invariant (what
    every constructor and operation of the crate returns: GenPropsBits) they are the model's container codec. *)
From SSZ Require Import Base RustSem Offsets Encoder Builder Bitfield BitfieldFacts BitfieldOps BitfieldOpsFacts Types Codec CodecUnfold
     BaseFacts OffsetsFacts AppendFacts MetaFacts ListDecFacts BuilderFacts Canon
     Generated GenEquiv GenEquivBits GenEquivDec GenEquivEnc GenProps GeneratedDerive GenEquivDerive GenEquivDerive2 GenEquivTuple GenEquivDerive4.
From Coq Require Import ZArith ZifyN ZifyBool ZifyNat Lia.
Open Scope N_scope.

Definition v_bits (g : Gen.Bitfield) : val := VBits (bf_iter (bf_abs g)).

(** a bitfield that satisfies the invariant is what [bv_of_bits] / [bl_of_bits] rebuild from its own bits *)
Lemma bitvector_bytes_of_Inv n b : Inv b -> bf_len b = n -> bitvector_bytes n (bf_iter b) = bv_into_bytes b.
Proof.
  intros HI Hl. destruct (bv_of_bits_ok n (bf_iter b)) as (b' & E & HI' & Hl' & Hb').
  { rewrite bf_iter_length by exact HI. exact Hl. }
  unfold bitvector_bytes. rewrite E. f_equal. apply Inv_ext; try assumption; [congruence|].
  intros i Hi. rewrite Hb', nth_bf_iter by exact HI. rewrite N2Nat.id. reflexivity.
Qed.

Lemma bitlist_bytes_of_Inv n b : Inv b -> bf_len b <= n -> bitlist_bytes n (bf_iter b) = unwrap_bytes (bl_into_bytes b).
Proof.
  intros HI Hl. destruct (bl_of_bits_ok n (bf_iter b)) as (b' & E & HI' & Hl' & Hb').
  { rewrite bf_iter_length by exact HI. exact Hl. }
  unfold bitlist_bytes. rewrite E. f_equal. f_equal. apply Inv_ext; try assumption.
  - rewrite Hl', bf_iter_length by exact HI. reflexivity.
  - intros i Hi. rewrite Hb', nth_bf_iter by exact HI. rewrite N2Nat.id. reflexivity.
Qed.

(** ** [BitsV { a: BitVector<U9>, c: u8 }] *)
Definition T_BitsV : ty := TContainer true [TBitVector 9; TUint 1].
Definition v_BitsV (r : GenD.BitsV) : val := VCont [v_bits (GenD.BitsV_a r); VUint (GenD.BitsV_c r)].

Theorem derive_BitsV_metadata :
  GenD.BitsV_enc_is_ssz_fixed_len = Ok (e_is_fixed T_BitsV) /\ GenD.BitsV_enc_ssz_fixed_len = Ok (e_fixed_len T_BitsV) /\
  GenD.BitsV_dec_is_ssz_fixed_len = Ok (d_is_fixed T_BitsV) /\ GenD.BitsV_dec_ssz_fixed_len = Ok (d_fixed_len T_BitsV).
Proof. repeat split; vm_compute; reflexivity. Qed.

Lemma bitvector_from n b : omap v_bits (Gen.bitvector_from_ssz_bytes n b) = dec (TBitVector n) b.
Proof. cbn [dec]. rewrite <- gen_bitvector_from_ssz_bytes_eq. destruct (Gen.bitvector_from_ssz_bytes n b); reflexivity. Qed.

Theorem derive_BitsV_from_ssz_bytes bs : omap v_BitsV (GenD.BitsV_from_ssz_bytes bs) = dec T_BitsV bs.
Proof.
  unfold GenD.BitsV_from_ssz_bytes.
  change GenD.BitsV_dec_is_ssz_fixed_len with (Ok true : outcome bool).
  change GenD.BitsV_dec_ssz_fixed_len with (Ok 3 : outcome N).
  change (Gen.bitvector_dec_ssz_fixed_len 9) with (Ok 2 : outcome N). leaf_meta.
  apply (split_path [TBitVector 9; TUint 1]); [reflexivity|].
  apply (split_step v_bits (TBitVector 9)); [exact (bitvector_from 9)|]. intros a rest.
  apply (split_step VUint (TUint 1)); [exact gen_u8_from_ssz_bytes_eq|]. intros c rest1.
  reflexivity.
Qed.

Theorem derive_BitsV_ssz_append r buf :
  Inv (bf_abs (GenD.BitsV_a r)) -> bf_len (bf_abs (GenD.BitsV_a r)) = 9 ->
  GenD.BitsV_ssz_append r buf = Ok (append T_BitsV (v_BitsV r) buf).
Proof.
  intros HI Hl. unfold GenD.BitsV_ssz_append.
  change (Gen.bitvector_enc_ssz_fixed_len 9) with (Ok 2 : outcome N).
  change (Gen.bitvector_enc_is_ssz_fixed_len 9) with (Ok true : outcome bool). leaf_meta.
  apply (container_append true [TBitVector 9; TUint 1] [v_bits (GenD.BitsV_a r); VUint (GenD.BitsV_c r)]
           [put true (Gen.bitvector_ssz_append 9) (GenD.BitsV_a r); put true Gen.u8_ssz_append (GenD.BitsV_c r)] buf).
  - repeat constructor; apply put_as; intro; [|reflexivity].
    rewrite gen_bitvector_ssz_append_eq. unfold v_bits. cbn [append fst snd]. rewrite (bitvector_bytes_of_Inv 9 _ HI Hl). reflexivity.
  - vm_compute. discriminate.
Qed.

Theorem derive_BitsV_ssz_bytes_len r : GenD.BitsV_ssz_bytes_len r = Ok (bytes_len T_BitsV (v_BitsV r)).
Proof. reflexivity. Qed.

(** ** [BitsL { a: BitVector<U9>, b: BitList<U16>, c: u8 }] (Encode) *)
Definition T_BitsL : ty := TContainer true [TBitVector 9; TBitList 16; TUint 1].
Definition v_BitsL (r : GenD.BitsL) : val := VCont [v_bits (GenD.BitsL_a r); v_bits (GenD.BitsL_b r); VUint (GenD.BitsL_c r)].

Theorem derive_BitsL_metadata :
  GenD.BitsL_enc_is_ssz_fixed_len = Ok (e_is_fixed T_BitsL) /\ GenD.BitsL_enc_ssz_fixed_len = Ok (e_fixed_len T_BitsL).
Proof. repeat split; vm_compute; reflexivity. Qed.

Theorem derive_BitsL_ssz_append r buf :
  Inv (bf_abs (GenD.BitsL_a r)) -> bf_len (bf_abs (GenD.BitsL_a r)) = 9 ->
  Inv (bf_abs (GenD.BitsL_b r)) -> bf_len (bf_abs (GenD.BitsL_b r)) <= 16 ->
  GenD.BitsL_ssz_append r buf = Ok (append T_BitsL (v_BitsL r) buf).
Proof.
  intros HIa Hla HIb Hlb. unfold GenD.BitsL_ssz_append.
  change (Gen.bitvector_enc_ssz_fixed_len 9) with (Ok 2 : outcome N).
  change (Gen.bitvector_enc_is_ssz_fixed_len 9) with (Ok true : outcome bool).
  change (Gen.bitlist_enc_is_ssz_fixed_len 16) with (Ok false : outcome bool). leaf_meta.
  apply (container_append true [TBitVector 9; TBitList 16; TUint 1]
           [v_bits (GenD.BitsL_a r); v_bits (GenD.BitsL_b r); VUint (GenD.BitsL_c r)]
           [put true (Gen.bitvector_ssz_append 9) (GenD.BitsL_a r); put false (Gen.bitlist_ssz_append 16) (GenD.BitsL_b r);
            put true Gen.u8_ssz_append (GenD.BitsL_c r)] buf).
  - repeat constructor; apply put_as; intro b0; [| |reflexivity]; unfold v_bits; cbn [append fst snd].
    + rewrite gen_bitvector_ssz_append_eq, (bitvector_bytes_of_Inv 9 _ HIa Hla). reflexivity.
    + (* an invariant-satisfying bitlist has an encoding *)
      rewrite gen_bitlist_ssz_append_eq by (pose proof usize_max_val; lia).
      destruct (bl_into_bytes_ok _ HIb) as (bsb & Eb). rewrite (bitlist_bytes_of_Inv 16 _ HIb Hlb), Eb. reflexivity.
  - change (sumN (map e_fixed_len _)) with 7. cbn [map sumN combine removelast fst snd]. unfold var_len. cbn [fst snd].
    change (e_is_fixed (TBitVector 9)) with true. change (e_is_fixed (TBitList 16)) with false. cbv iota.
    unfold enc, v_bits. cbn [append]. rewrite (bitlist_bytes_of_Inv 16 _ HIb Hlb).
    destruct (bl_into_bytes_spec _ HIb) as (b2 & Eb & (Hlen2 & _) & Hl2 & _). rewrite Eb. cbn [unwrap_bytes app].
    rewrite Hlen2, Hl2. unfold bytes_for_bit_len. pose proof usize_max_val. lia.
Qed.

(** ** decoding a container with a [BitList] field.  The crate computes [bytes.len() * 8] on the field's slice, so
    the statement is for inputs below 2^61 bytes; every item the builder hands out is a slice of the input. *)
Definition small (s : bytes) : Prop := wfb s /\ 8 * len s <= usize_max.

Lemma small_slice_closed : slice_closed small.
Proof.
  intros bs a b [Hw Hl]. split.
  - apply wfb_take, wfb_drop. exact Hw.
  - assert (H : len (take a (drop b bs)) <= len bs).
    { unfold len, take, drop. rewrite firstn_length, skipn_length. lia. }
    lia.
Qed.

Lemma builder_items_small regs bs items :
  small bs -> builder_build regs bs = Ok items -> Forall small items.
Proof.
  intros Hs Hb. assert (Hp : wfb bs /\ len bs <= usize_max) by (destruct Hs; split; [assumption|lia]).
  (* the items tile the input: [bs] is [assemble] of them, fixed parts and offsets first, variable parts behind;
     [small] passes to slices, hence from an assembly to each of its parts ([sc_asm]) *)
  apply (builder_build_tiles _ _ _ (proj1 Hp) (proj2 Hp)) in Hb as HT.
  destruct HT as (Hsl & Hfix & Hfit & Hbs). cbv zeta in Hbs.
  pose proof (sc_asm small _ _ small_slice_closed ltac:(rewrite <- Hbs; exact Hs)) as Hq.
  rewrite Forall_forall in *. intros s Hin0.
  assert (In s (map snd (combine (map fst regs) items))) as Hin.
  { rewrite map_snd_combine'; [exact Hin0|]. rewrite map_length. lia. }
  apply in_map_iff in Hin as (p & <- & Hpin). now apply Hq.
Qed.

Theorem derive_BitsL_from_ssz_bytes bs :
  small bs -> omap v_BitsL (GenD.BitsL_from_ssz_bytes bs) = dec T_BitsL bs.
Proof.
  intro Hs. unfold GenD.BitsL_from_ssz_bytes.
  change GenD.BitsL_dec_is_ssz_fixed_len with (Ok false : outcome bool).
  change (Gen.bitvector_dec_is_ssz_fixed_len 9) with (Ok true : outcome bool).
  change (Gen.bitvector_dec_ssz_fixed_len 9) with (Ok 2 : outcome N).
  change (Gen.bitlist_dec_is_ssz_fixed_len 16) with (Ok false : outcome bool). leaf_meta.
  apply (builder_path_on small true [TBitVector 9; TBitList 16; TUint 1]);
    [intros items; exact (builder_items_small _ bs items Hs) | reflexivity |]. intros items HS.
  apply (decode_next_step_on small v_bits (TBitVector 9)); [exact HS | intros b _; apply bitvector_from |]. intros a its HS1.
  apply (decode_next_step_on small v_bits (TBitList 16)); [exact HS1 | |].
  { intros b [Hw Hl]. cbn [dec]. rewrite <- (gen_bitlist_from_ssz_bytes_eq 16 b Hw Hl). destruct (Gen.bitlist_from_ssz_bytes 16 b); reflexivity. }
  intros b its1 HS2.
  apply (decode_next_step_on small VUint (TUint 1)); [exact HS2 | intros c _; apply gen_u8_from_ssz_bytes_eq |]. intros c its2 _.
  reflexivity.
Qed.

(** the hypotheses are satisfiable: values produced by the expanded decoder satisfy them, and re-encode *)
Example ex_BitsV :
  (do r <- GenD.BitsV_from_ssz_bytes [5; 1; 7]; GenD.BitsV_ssz_append r [170]) = Ok [170; 5; 1; 7] /\
  GenD.BitsV_from_ssz_bytes [5; 2; 7] = Err /\ GenD.BitsV_from_ssz_bytes [5; 1] = Err.
Proof. vm_compute. repeat split. Qed.

Print Assumptions derive_BitsV_metadata.
Print Assumptions derive_BitsV_from_ssz_bytes.
Print Assumptions derive_BitsV_ssz_append.
Print Assumptions derive_BitsV_ssz_bytes_len.
Print Assumptions derive_BitsL_metadata.
Print Assumptions derive_BitsL_ssz_append.
Print Assumptions derive_BitsL_from_ssz_bytes.
