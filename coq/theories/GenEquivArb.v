(** * GenEquivArb: the [Arbitrary] generators of [BitVector<N>] / [BitList<N>] (C20), as written in the source,
    are the model's [arb_bitvector] / [arb_bitlist].  The two [Unstructured] operations are primitives (RustSem.v). *)
From SSZ Require Import Base RustSem Bitfield BaseFacts BitfieldFacts BitfieldOpsFacts Generated GenEquiv GenEquivBits.
From Coq Require Import ZArith ZifyN ZifyBool ZifyNat Lia.
Open Scope N_scope.

Lemma llen_repeat_n (x : N) n : llen (repeat_n x n) = n.
Proof. unfold llen, repeat_n. rewrite repeat_length. apply Nnat.N2Nat.id. Qed.

Lemma len_fill_buffer data n : len (fst (fill_buffer data n)) = n.
Proof.
  unfold fill_buffer. cbn [fst]. rewrite len_app, len_take by apply N.le_min_r.
  change (len (repeat_n 0 ?k)) with (llen (repeat_n 0 k)). rewrite llen_repeat_n. lia.
Qed.

Theorem gen_bitvector_arbitrary_eq n data :
  omap bf_abs (Gen.bitvector_arbitrary n data) = arb_bitvector n data.
Proof.
  unfold Gen.bitvector_arbitrary, arb_bitvector. rewrite gen_bytes_for_bit_len_eq. cbn [bind]. rewrite llen_repeat_n.
  apply gen_bitvector_from_bytes_eq.
Qed.

Theorem gen_bitlist_arbitrary_eq n data :
  wfb data -> 8 * n <= usize_max ->
  omap bf_abs (Gen.bitlist_arbitrary n data) = arb_bitlist n data.
Proof.
  intros Hw Hn. unfold Gen.bitlist_arbitrary, arb_bitlist. cbn [bind]. rewrite llen_repeat_n.
  apply gen_bitlist_from_bytes_eq; [apply wfb_arb_list_buf, Hw | rewrite len_fill_buffer; lia].
Qed.

Print Assumptions gen_bitvector_arbitrary_eq.
Print Assumptions gen_bitlist_arbitrary_eq.
