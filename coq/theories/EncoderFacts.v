(** * The encoder state machine writes exactly [assemble] (C10, C03, C01). *)
From SSZ Require Import Base BaseFacts Offsets OffsetsFacts Encoder Layout.
From Coq Require Import ZArith ZifyN ZifyNat ZifyBool.
Open Scope N_scope.

(** An item whose [ssz_append] appends the bytes [snd p] and nothing else. *)
Definition appends (it : bool * (bytes -> bytes)) (p : part) : Prop :=
  fst it = fst p /\ forall b, snd it b = b ++ snd p.

Lemma enc_fold_assemble items : forall parts st,
  Forall2 appends items parts ->
  let st' := fold_left (fun st it => enc_append st (fst it) (snd it)) items st in
  e_offset st' = e_offset st /\
  e_buf st' = e_buf st ++ assemble_fixed (e_offset st + len (e_var st)) parts /\
  e_var st' = e_var st ++ var_concat parts.
Proof.
  induction items as [|it items IH]; intros parts st H; inversion H as [|? p ? parts' [Hf Ha] Hr]; subst.
  - cbn. rewrite !app_nil_r. auto.
  - cbn [fold_left]. destruct it as [f app]; destruct p as [pf pb]; cbn [fst snd] in *. subst pf.
    specialize (IH parts' (enc_append st f app) Hr). cbn zeta in IH.
    destruct IH as (I1 & I2 & I3). unfold enc_append in *.
    destruct f; cbn [e_offset e_buf e_var] in *; rewrite I1, I2, I3, Ha;
      cbn [assemble_fixed var_concat map concat fst snd];
      rewrite ?len_app, ?N.add_assoc, <- !app_assoc; auto.
Qed.

Theorem enc_run_assemble buf nf items parts :
  Forall2 appends items parts ->
  enc_run buf nf items = buf ++ assemble nf parts.
Proof.
  intros H. unfold enc_run, enc_finalize.
  destruct (enc_fold_assemble items parts (enc_container buf nf) H) as (_ & I2 & I3).
  rewrite I2, I3. cbn [enc_container e_buf e_var e_offset app]. unfold len at 1. cbn [length N.of_nat].
  rewrite N.add_0_r. unfold assemble. rewrite app_assoc. reflexivity.
Qed.

(** Plain byte-string items, as the harness drives the encoder. *)
Corollary enc_run_bytes buf nf (parts : list part) :
  enc_run buf nf (map (fun p : part => (fst p, fun b => b ++ snd p)) parts) = buf ++ assemble nf parts.
Proof.
  apply enc_run_assemble. induction parts as [|p parts IH]; constructor; auto.
  split; reflexivity.
Qed.
