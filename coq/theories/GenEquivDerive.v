(** * GenEquivDerive: what [ssz_derive] expands to for the sample definitions of /verif/derive_samples (rustc's
    expansion, translated into [GeneratedDerive.v] on every run; calls into the crate resolve to [Generated.v]) is the
    model codec at the schema [Derive.derive] assigns to the definition (container in declaration order, union and
    tag selectors by declaration index, transparent wrapper = its field), for every input. *)
From SSZ Require Import Base RustSem Offsets Encoder Builder Types Codec CodecUnfold BaseFacts OffsetsFacts AppendFacts
     Generated GenEquiv GenEquivDec GenEquivEnc GenProps GeneratedDerive.
From Coq Require Import ZArith ZifyN ZifyBool ZifyNat Lia.
Open Scope N_scope.

Definition v_list (l : list N) : val := VList (map VUint l).

(** The metadata of the leaf types are closed terms [Ok c]: the binds on them in an expanded function
    reduce away, which leaves the function's own steps at the head of the goal. *)
Ltac leaf_meta :=
  cbn [bind andb negb
       Gen.u8_enc_is_ssz_fixed_len Gen.u16_enc_is_ssz_fixed_len Gen.u32_enc_is_ssz_fixed_len Gen.u64_enc_is_ssz_fixed_len
       Gen.bool_enc_is_ssz_fixed_len Gen.vec_enc_is_ssz_fixed_len
       Gen.u8_enc_ssz_fixed_len Gen.u16_enc_ssz_fixed_len Gen.u32_enc_ssz_fixed_len Gen.u64_enc_ssz_fixed_len
       Gen.bool_enc_ssz_fixed_len Gen.encode_default_ssz_fixed_len
       Gen.u8_dec_is_ssz_fixed_len Gen.u16_dec_is_ssz_fixed_len Gen.u32_dec_is_ssz_fixed_len Gen.u64_dec_is_ssz_fixed_len
       Gen.bool_dec_is_ssz_fixed_len Gen.vec_dec_is_ssz_fixed_len
       Gen.u8_dec_ssz_fixed_len Gen.u16_dec_ssz_fixed_len Gen.u32_dec_ssz_fixed_len Gen.u64_dec_ssz_fixed_len
       Gen.bool_dec_ssz_fixed_len Gen.decode_default_ssz_fixed_len].

(** [a.checked_add(b).expect(..)], the addition of derived code *)
Lemma checked_add_ok a b : a + b <= usize_max -> unwrap_or_panic (checked_add a b) = Ok (a + b).
Proof. intro H. unfold checked_add. rewrite (proj2 (N.leb_le _ _) H). reflexivity. Qed.

(** ** lists of unsigned integers: the crate's [Vec<T>] impls instantiated at [u8] / [u16] *)
Lemma map_append_uint k (l : list N) :
  map (append (TUint k)) (map VUint l) = map (fun n (b : bytes) => b ++ le_bytes k n) l.
Proof. rewrite map_map. reflexivity. Qed.

Lemma vec_uint_append k l buf : N.of_nat k * llen l <= usize_max ->
  Gen.vec_ssz_append true (N.of_nat k) (fun n b => Ok (b ++ le_bytes k n)) l buf = Ok (append (TList (TUint k)) (v_list l) buf).
Proof.
  intro H. unfold Gen.vec_ssz_append. rewrite gen_sequence_ssz_append_eq by exact H. cbn [bind].
  f_equal. unfold v_list. cbn [append]. rewrite map_map. reflexivity.
Qed.

Lemma vec_uint_bytes_len k l : N.of_nat k * llen l <= usize_max ->
  Gen.vec_ssz_bytes_len true (N.of_nat k) (fun _ => Ok (N.of_nat k)) l = Ok (bytes_len (TList (TUint k)) (v_list l)).
Proof.
  intro H. unfold Gen.vec_ssz_bytes_len. rewrite gen_sequence_ssz_bytes_len_eq by exact H.
  f_equal. unfold v_list. cbn [bytes_len e_is_fixed e_fixed_len]. rewrite map_map. reflexivity.
Qed.

Lemma vec_u8_append l buf : llen l <= usize_max ->
  Gen.vec_ssz_append true 1 Gen.u8_ssz_append l buf = Ok (append (TList (TUint 1)) (v_list l) buf).
Proof. intro H. apply (vec_uint_append 1 l buf). lia. Qed.
Lemma vec_u16_append l buf : 2 * llen l <= usize_max ->
  Gen.vec_ssz_append true 2 Gen.u16_ssz_append l buf = Ok (append (TList (TUint 2)) (v_list l) buf).
Proof. exact (vec_uint_append 2 l buf). Qed.
Lemma vec_u8_bytes_len l : llen l <= usize_max ->
  Gen.vec_ssz_bytes_len true 1 Gen.u8_ssz_bytes_len l = Ok (bytes_len (TList (TUint 1)) (v_list l)).
Proof. intro H. apply (vec_uint_bytes_len 1 l). lia. Qed.
Lemma vec_u16_bytes_len l : 2 * llen l <= usize_max ->
  Gen.vec_ssz_bytes_len true 2 Gen.u16_ssz_bytes_len l = Ok (bytes_len (TList (TUint 2)) (v_list l)).
Proof. exact (vec_uint_bytes_len 2 l). Qed.

Lemma bytes_len_list_uint k l : bytes_len (TList (TUint k)) (v_list l) = N.of_nat k * llen l.
Proof. unfold v_list. cbn [bytes_len e_is_fixed e_fixed_len]. unfold seq_bytes_len, llen. rewrite !map_length. reflexivity. Qed.

Lemma bytes_len_list_u8 l : bytes_len (TList (TUint 1)) (v_list l) = llen l.
Proof. rewrite bytes_len_list_uint. lia. Qed.

Lemma len_enc_list_uint k l : len (enc (TList (TUint k)) (v_list l)) = N.of_nat k * llen l.
Proof.
  unfold enc, v_list. cbn [append e_is_fixed]. unfold seq_append. rewrite map_map.
  enough (H : forall b : bytes, len (fold_left (fun b0 (a : bytes -> bytes) => a b0) (map (fun x => append (TUint k) (VUint x)) l) b) = len b + N.of_nat k * llen l)
    by (rewrite H; unfold len at 1; cbn [length]; lia).
  induction l as [|x r IH]; intro b; cbn [map fold_left]; [unfold llen; cbn [length]; lia|].
  rewrite IH. cbn [append]. rewrite len_app. unfold len at 2. rewrite le_bytes_length. unfold llen. cbn [length]. lia.
Qed.

Lemma vec_uint_from k (d : bytes -> outcome N) bs :
  (0 < k)%nat -> (forall b, omap VUint (d b) = dec (TUint k) b) ->
  omap v_list (Gen.vec_from_ssz_bytes true (N.of_nat k) d bs) = dec (TList (TUint k)) bs.
Proof.
  intros Hk Hd. unfold Gen.vec_from_ssz_bytes. cbn [dec d_is_fixed d_fixed_len]. unfold dec_seq. rewrite llen_len.
  destruct bs as [|b0 br] eqn:E; [reflexivity|]. rewrite <- E.
  replace (len bs =? 0) with false by (symmetry; apply N.eqb_neq; subst bs; unfold len; cbn [length]; lia).
  replace (N.of_nat k =? 0) with false by (symmetry; apply N.eqb_neq; lia).
  unfold chunks_n. rewrite Nnat.Nat2N.id.
  change (omap v_list ?x) with (omap (fun l => VList (map VUint l)) x).
  rewrite (mapM_collect (dec (TUint k)) d VUint) by (intro; symmetry; apply Hd). destruct (mapM d _); reflexivity.
Qed.

Lemma vec_u8_from b : omap v_list (Gen.vec_from_ssz_bytes true 1 Gen.u8_from_ssz_bytes b) = dec (TList (TUint 1)) b.
Proof. exact (vec_uint_from 1 Gen.u8_from_ssz_bytes b ltac:(lia) gen_u8_from_ssz_bytes_eq). Qed.
Lemma vec_u16_from b : omap v_list (Gen.vec_from_ssz_bytes true 2 Gen.u16_from_ssz_bytes b) = dec (TList (TUint 2)) b.
Proof. exact (vec_uint_from 2 Gen.u16_from_ssz_bytes b ltac:(lia) gen_u16_from_ssz_bytes_eq). Qed.

(** [match selector { 0 => .., 1 => .., _ => Err }] as the derived decoder of a union writes it, from variant [i] on *)
Fixpoint sel_chain (ds : list (bytes -> outcome val)) (i : nat) (sel : N) (body : bytes) : outcome val :=
  match ds with
  | [] => Err
  | d :: r => if sel =? N.of_nat i then omap (VUnion i) (d body) else sel_chain r (S i) sel body
  end.

Lemma dec_union_chain ts bs :
  dec (TUnion ts) bs = do p <- split_union_bytes bs; let (sel, body) := p in sel_chain (map dec ts) 0 sel body.
Proof.
  rewrite dec_union. destruct (split_union_bytes bs) as [[sel body]| |]; cbn [bind fst snd]; try reflexivity.
  rewrite <- (Nat.sub_0_r (N.to_nat sel)) at 1. generalize (Nat.le_0_l (N.to_nat sel)). generalize 0%nat as i.
  induction ts as [|t r IH]; intros i Hi; cbn [map sel_chain]; [destruct (N.to_nat sel - i)%nat; reflexivity|].
  destruct (N.eqb_spec sel (N.of_nat i)) as [->|Hne].
  - rewrite Nnat.Nat2N.id, Nat.sub_diag. reflexivity.
  - rewrite <- (IH (S i)) by lia. replace (N.to_nat sel - i)%nat with (S (N.to_nat sel - S i)) by lia. reflexivity.
Qed.

(** ** The loops the macros unroll

    [ssz_derive] and the tuple macros write one statement per field inside a fixed frame.  A state-passing statement
    ([builder.register_type::<T>()?], [offset += ..], [encoder.append(&self.f)], [len += ..]) is a function on the
    state; a run of them is a recursion over the list of fields in continuation-passing style, which on a literal list
    unfolds to exactly the expanded code, and what a run computes is proved once, by induction on the list.  A
    statement that binds a field's value ([decoder.decode_next()?], [split_at] with [from_ssz_bytes]) has the field's
    own type: it is one application of a step lemma whose continuation is the rest of the function. *)

(** [let s = step(s)?;] per element *)
Fixpoint step_chain {S R} (steps : list (S -> outcome S)) (s : S) (k : S -> outcome R) : outcome R :=
  match steps with
  | [] => k s
  | f :: r => do s' <- f s; step_chain r s' k
  end.

(** a run of checked additions: each statement adds its share [d x] to the running sum, as long as that fits *)
Lemma step_chain_sum {A R} (step : A -> N -> outcome N) (d : A -> N) :
  (forall x a, a + d x <= usize_max -> step x a = Ok (a + d x)) ->
  forall xs acc (k : N -> outcome R), acc + sumN (map d xs) <= usize_max ->
  step_chain (map step xs) acc k = k (acc + sumN (map d xs)).
Proof.
  intros Hs xs. induction xs as [|x r IH]; intros acc k H; cbn [map step_chain sumN] in *.
  - f_equal. lia.
  - rewrite Hs by lia. cbn [bind]. rewrite IH by lia. f_equal. lia.
Qed.

(** [a + b + c + ..]: [add] is [usize_add] in the tuple impls, [checked_add(..).expect(..)] in derived code *)
Definition add_chain {R} (add : N -> N -> outcome N) (ls : list N) : N -> (N -> outcome R) -> outcome R :=
  step_chain (map (fun l a => add a l) ls).

Lemma add_chain_ok {R} add ls acc (k : N -> outcome R) :
  (forall a b, a + b <= usize_max -> add a b = Ok (a + b)) ->
  acc + sumN ls <= usize_max -> add_chain add ls acc k = k (acc + sumN ls).
Proof.
  intros Ha H. unfold add_chain. rewrite (step_chain_sum _ (fun l => l)), map_id by (rewrite ?map_id; auto). reflexivity.
Qed.

Lemma step_chain_fold {S R} steps : forall s (k : S -> outcome R),
  step_chain steps s k = do s' <- fold_m (fun s step => step s) steps s; k s'.
Proof. induction steps as [|f r IH]; intros s k; cbn [step_chain fold_m bind]; [reflexivity|]. destruct (f s); cbn [bind]; auto. Qed.

(** what a field adds to the variable part *)
Definition var_len (p : ty * val) : N := if e_is_fixed (fst p) then 0 else len (enc (fst p) (snd p)).

(** the offset written before a variable field is the fixed part plus the variable part so far: it has to fit
    for every field but the last *)
Lemma append_steps_eq {R} steps tvs :
  Forall2 (fun step p => appends_as (e_is_fixed (fst p)) (append (fst p) (snd p)) step) steps tvs ->
  forall e (k : Gen.SszEncoder -> outcome R) (k' : enc_state -> outcome R),
  (forall e', k e' = k' (enc_abs e')) ->
  e_offset (enc_abs e) + len (e_var (enc_abs e)) + sumN (map var_len (removelast tvs)) <= usize_max ->
  step_chain steps e k = k' (fold_left (fun st it => enc_append st (fst it) (snd it)) (map (fun p => (e_is_fixed (fst p), append (fst p) (snd p))) tvs) (enc_abs e)).
Proof.
  intros Hs e k k' Hk H. rewrite step_chain_fold.
  destruct (append_run (fun p => (e_is_fixed (fst p), append (fst p) (snd p))) steps tvs Hs e) as (e' & -> & <-); [|apply Hk].
  apply (fits_sum _ var_len); [|exact H].
  intros [t v] st. unfold var_len, enc_append. cbn [fst snd].
  destruct (e_is_fixed t); cbn [e_offset e_var]; [lia|]. rewrite append_spec, len_app. lia.
Qed.

(** the frame of the encoder path: [container], the appends and [finalize] are the model's container encoder *)
Lemma encoder_frame d ts vs steps buf :
  Forall2 (fun step p => appends_as (e_is_fixed (fst p)) (append (fst p) (snd p)) step) steps (combine ts vs) ->
  sumN (map e_fixed_len ts) + sumN (map var_len (removelast (combine ts vs))) <= usize_max ->
  (do e <- Gen.encoder_container buf (sumN (map e_fixed_len ts));
   step_chain steps e (fun e => do e' <- Gen.encoder_finalize e; Ok (Gen.SszEncoder_buf e')))
  = Ok (append (TContainer d ts) (VCont vs) buf).
Proof.
  intros Hs H. unfold Gen.encoder_container. cbn [bind].
  rewrite (append_steps_eq steps _ Hs _ _ (fun st => Ok (enc_finalize st))).
  - rewrite append_container. reflexivity.
  - intros [o b v]. reflexivity.
  - cbn [enc_abs e_offset e_var Gen.SszEncoder_offset Gen.SszEncoder_variable_bytes]. change (len []) with 0. lia.
Qed.

(** The whole of a derived [ssz_append]: [offset] starts at 0 and is summed with [checked_add(..).expect(..)]. *)
Theorem container_append d ts vs steps buf :
  Forall2 (fun step p => appends_as (e_is_fixed (fst p)) (append (fst p) (snd p)) step) steps (combine ts vs) ->
  sumN (map e_fixed_len ts) + sumN (map var_len (removelast (combine ts vs))) <= usize_max ->
  add_chain (fun a b => unwrap_or_panic (checked_add a b)) (map e_fixed_len ts) 0 (fun off =>
    do e <- Gen.encoder_container buf off;
    step_chain steps e (fun e => do e' <- Gen.encoder_finalize e; Ok (Gen.SszEncoder_buf e')))
  = Ok (append (TContainer d ts) (VCont vs) buf).
Proof. intros Hs H. rewrite add_chain_ok by (exact checked_add_ok || lia). exact (encoder_frame d ts vs steps buf Hs H). Qed.

(** *** [ssz_bytes_len] of a derived container that is not all-fixed: [len += ..] per field, on the field's
    [is_ssz_fixed_len], [ssz_fixed_len] and [ssz_bytes_len] (already known to return [bytes_len]) *)
Definition len_step (p : ty * val) (acc : N) : outcome N :=
  if e_is_fixed (fst p) then do t <- unwrap_or_panic (checked_add acc (e_fixed_len (fst p))); Ok t
  else do t <- unwrap_or_panic (checked_add acc Gen.BYTES_PER_LENGTH_OFFSET);
       do b <- Ok (bytes_len (fst p) (snd p)); do u <- unwrap_or_panic (checked_add t b); Ok u.

Lemma len_step_ok p acc : acc + field_len (fst p) (snd p) <= usize_max -> len_step p acc = Ok (acc + field_len (fst p) (snd p)).
Proof.
  unfold len_step, field_len, BYTES_PER_LENGTH_OFFSET, Gen.BYTES_PER_LENGTH_OFFSET. intro H.
  destruct (e_is_fixed (fst p)); rewrite ?(checked_add_ok acc) by lia; cbn [bind]; rewrite ?checked_add_ok by lia; cbn [bind]; f_equal; lia.
Qed.

Theorem container_bytes_len d ts vs :
  forallb e_is_fixed ts = false ->
  sumN (map (fun p => field_len (fst p) (snd p)) (combine ts vs)) <= usize_max ->
  step_chain (map len_step (combine ts vs)) 0 Ok = Ok (bytes_len (TContainer d ts) (VCont vs)).
Proof. intros Hf H. rewrite (step_chain_sum _ _ len_step_ok) by exact H. rewrite bytes_len_container, Hf. reflexivity. Qed.

(** *** decoding an all-fixed container: [split_at] and the field's [from_ssz_bytes], per field *)
Lemma split_at_n_eq (bs : bytes) mid : split_at_n bs mid = split_at bs mid.
Proof. reflexivity. Qed.

(** [if bytes.len() != <Self as Decode>::ssz_fixed_len() { Err } else { .. }] around the fields *)
Lemma split_path {R} ts bs (r : outcome R) (inj : R -> val) :
  forallb d_is_fixed ts = true ->
  omap inj r = (do xs <- split_dec (map (fun f => (d_fixed_len f, dec f)) ts) bs; Ok (VCont xs)) ->
  omap inj (if negb (llen bs =? sumN (map d_fixed_len ts)) then Err else r) = dec (TContainer true ts) bs.
Proof.
  intros Hf Hr. rewrite dec_container, Hf, llen_len. cbn [andb].
  destruct (negb _); [reflexivity|]. rewrite Hr. destruct (split_dec _ bs); reflexivity.
Qed.

(** [let (slice, bytes) = bytes.split_at(T::ssz_fixed_len()); let f = T::from_ssz_bytes(slice)?;] *)
Lemma split_step {A R} (inj : A -> val) t (D : bytes -> outcome A) (injR : R -> val) fs bs
    (k : A -> bytes -> outcome R) (k' : list val -> outcome val) :
  (forall b, omap inj (D b) = dec t b) ->
  (forall x rest, omap injR (k x rest) = do xs <- split_dec fs rest; k' (inj x :: xs)) ->
  omap injR (do p <- split_at_n bs (d_fixed_len t); let '(slice, rest) := p in do q <- D slice; k q rest)
  = do xs <- split_dec ((d_fixed_len t, dec t) :: fs) bs; k' xs.
Proof.
  intros HD Hk. cbn [split_dec]. rewrite split_at_n_eq.
  destruct (split_at bs (d_fixed_len t)) as [[s r]| |]; cbn [bind fst snd omap]; try reflexivity.
  rewrite <- HD. destruct (D s) as [x| |]; cbn [bind omap]; try reflexivity.
  rewrite Hk. destruct (split_dec fs r); reflexivity.
Qed.

(** *** decoding through [SszDecoderBuilder]: [register_type] and [decode_next] as they stand in a [?]-chain *)
Lemma register_type_bind {B} s f l (k : Gen.SszDecoderBuilder -> outcome B) (k' : bstate -> outcome B) :
  (forall s', Gen.SszDecoderBuilder_bytes s' = Gen.SszDecoderBuilder_bytes s -> k s' = k' (st_abs s')) ->
  (do st <- Gen.builder_register_type f l s; k st)
  = do st <- register (Gen.SszDecoderBuilder_bytes s) (st_abs s) f l; k' st.
Proof.
  intro Hk. pose proof (gen_builder_register_type_eq s f l) as E.
  destruct (Gen.builder_register_type f l s) as [s'| |];
    destruct (register (Gen.SszDecoderBuilder_bytes s) (st_abs s) f l) as [st| |];
    cbn [omap bind] in *; try discriminate; try reflexivity.
  apply Ok_inj_pair in E. destruct E as (Eb & Es). rewrite <- Es. apply Hk. exact Eb.
Qed.

Lemma decode_next_bind {A B} items (d : bytes -> outcome A) (k : A -> Gen.SszDecoder -> outcome B) :
  (do vs <- Gen.decoder_decode_next d {| Gen.SszDecoder_items := items |}; k (fst vs) (snd vs))
  = do p <- decode_next items d; k (fst p) {| Gen.SszDecoder_items := snd p |}.
Proof.
  pose proof (gen_decoder_decode_next_eq items d) as E.
  destruct (Gen.decoder_decode_next d {| Gen.SszDecoder_items := items |}) as [[x [its]]| |];
    destruct (decode_next items d) as [[y its']| |]; cbn [omap bind fst snd] in *; try discriminate; try reflexivity.
  apply Ok_inj_pair in E. destruct E as (E1 & E2). cbn [Gen.SszDecoder_items] in E2. subst. reflexivity.
Qed.

(** [builder.register_type::<T>()?;] per field *)
Fixpoint reg_chain {R} (regs : list (bool * N)) (b : Gen.SszDecoderBuilder)
         (k : Gen.SszDecoderBuilder -> outcome R) : outcome R :=
  match regs with
  | [] => k b
  | (f, l) :: r => do b' <- Gen.builder_register_type f l b; reg_chain r b' k
  end.

Lemma reg_chain_eq {R} regs : forall b (k : Gen.SszDecoderBuilder -> outcome R) (k' : bstate -> outcome R),
  (forall b', Gen.SszDecoderBuilder_bytes b' = Gen.SszDecoderBuilder_bytes b -> k b' = k' (st_abs b')) ->
  reg_chain regs b k = do st <- register_all (Gen.SszDecoderBuilder_bytes b) (st_abs b) regs; k' st.
Proof.
  induction regs as [|[f l] r IH]; intros b k k' Hk; cbn [reg_chain register_all bind].
  - apply Hk. reflexivity.
  - rewrite (register_type_bind b f l _ (fun st => do st' <- register_all (Gen.SszDecoderBuilder_bytes b) st r; k' st')).
    + destruct (register _ _ f l); reflexivity.
    + intros b' Eb. rewrite <- Eb. apply IH. intros b'' Eb'. apply Hk. congruence.
Qed.

(** the frame of the builder path: [new], the registrations and [build] are the model's [builder_build] *)
Lemma builder_frame {R} regs bs (k : Gen.SszDecoder -> outcome R) :
  (do b0 <- Gen.builder_new bs; reg_chain regs b0 (fun b => do d <- Gen.builder_build b; k d))
  = do items <- builder_build regs bs; k {| Gen.SszDecoder_items := items |}.
Proof.
  unfold Gen.builder_new, builder_build. cbn [bind].
  rewrite (reg_chain_eq regs _ _ (fun st => do items <- finalize bs st; k {| Gen.SszDecoder_items := items |})).
  - cbn [Gen.SszDecoderBuilder_bytes]. change (st_abs _) with builder_new.
    destruct (register_all bs builder_new regs); reflexivity.
  - intros b' Eb. cbn [Gen.SszDecoderBuilder_bytes] in Eb. rewrite <- Eb, <- gen_builder_build_eq.
    destruct (Gen.builder_build b') as [[its]| |]; reflexivity.
Qed.

Lemma Forall_True {A} (l : list A) : Forall (fun _ => True) l.
Proof. induction l; constructor; trivial. Qed.

(** ... after which a container that is not decoded by [split_at] is the model's, if [k] decodes the fields.  [P] holds
    of every slice the builder hands out; it is [fun _ => True] unless a field's decoder agrees with the model only on
    some slices (a [BitList] field: inputs below 2^61 bytes). *)
Lemma builder_path_on (P : bytes -> Prop) {R} d ts bs (k : Gen.SszDecoder -> outcome R) (inj : R -> val) :
  (forall items, builder_build (regs_of ts) bs = Ok items -> Forall P items) ->
  d && forallb d_is_fixed ts = false ->
  (forall items, Forall P items ->
     omap inj (k {| Gen.SszDecoder_items := items |}) = do xs <- decode_all items (map dec ts); Ok (VCont xs)) ->
  omap inj (do b0 <- Gen.builder_new bs; reg_chain (regs_of ts) b0 (fun b => do d <- Gen.builder_build b; k d))
  = dec (TContainer d ts) bs.
Proof.
  intros HP Hf Hk. rewrite builder_frame, dec_container, Hf.
  destruct (builder_build (regs_of ts) bs) as [items| |]; cbn [bind omap]; try reflexivity.
  rewrite (Hk items (HP items eq_refl)). destruct (decode_all items (map dec ts)); reflexivity.
Qed.

Lemma builder_path {R} d ts bs (k : Gen.SszDecoder -> outcome R) (inj : R -> val) :
  d && forallb d_is_fixed ts = false ->
  (forall items, omap inj (k {| Gen.SszDecoder_items := items |}) = do xs <- decode_all items (map dec ts); Ok (VCont xs)) ->
  omap inj (do b0 <- Gen.builder_new bs; reg_chain (regs_of ts) b0 (fun b => do d <- Gen.builder_build b; k d))
  = dec (TContainer d ts) bs.
Proof. intros Hf Hk. apply (builder_path_on (fun _ => True)); [intros; apply Forall_True | exact Hf | intros items _; apply Hk]. Qed.

(** one [decoder.decode_next()?] ([m]): the field's decoder [D] at its native type is the model's [d] under [inj];
    [k] is the rest of the function, [k'] what the model does with the remaining fields *)
Lemma decode_step_on (P : bytes -> Prop) {A R} (inj : A -> val) (d : bytes -> outcome val) (D : bytes -> outcome A)
    (injR : R -> val) ds items (m : outcome (A * Gen.SszDecoder)) (k : A * Gen.SszDecoder -> outcome R) (k' : list val -> outcome val) :
  omap (fun p => (fst p, Gen.SszDecoder_items (snd p))) m = decode_next items D ->
  Forall P items ->
  (forall b, P b -> omap inj (D b) = d b) ->
  (forall x its, Forall P its -> omap injR (k (x, {| Gen.SszDecoder_items := its |})) = do xs <- decode_all its ds; k' (inj x :: xs)) ->
  omap injR (do vs <- m; k vs) = do xs <- decode_all items (d :: ds); k' xs.
Proof.
  intros Hm HP HD Hk. cbn [decode_all]. destruct HP as [|s r Hs Hr]; cbn [decode_next] in *.
  - destruct m; cbn [omap] in Hm; try discriminate. reflexivity.
  - rewrite <- (HD s Hs). destruct m as [[x [its]]| |], (D s) as [y| |]; cbn [omap bind fst snd Gen.SszDecoder_items] in *; try discriminate; try reflexivity.
    injection Hm as -> ->. rewrite (Hk _ _ Hr). destruct (decode_all r ds); reflexivity.
Qed.

Definition decode_next_step_on P {A R} (inj : A -> val) t (D : bytes -> outcome A) (injR : R -> val) ds items k k' :=
  @decode_step_on P A R inj (dec t) D injR ds items _ k k' (gen_decoder_decode_next_eq items D).

Lemma decode_step {A R} (inj : A -> val) (d : bytes -> outcome val) (D : bytes -> outcome A) (injR : R -> val) ds items
    (m : outcome (A * Gen.SszDecoder)) (k : A * Gen.SszDecoder -> outcome R) (k' : list val -> outcome val) :
  omap (fun p => (fst p, Gen.SszDecoder_items (snd p))) m = decode_next items D ->
  (forall b, omap inj (D b) = d b) ->
  (forall x its, omap injR (k (x, {| Gen.SszDecoder_items := its |})) = do xs <- decode_all its ds; k' (inj x :: xs)) ->
  omap injR (do vs <- m; k vs) = do xs <- decode_all items (d :: ds); k' xs.
Proof. intros Hm HD Hk. apply (decode_step_on (fun _ => True) inj d D injR ds items m k k' Hm (Forall_True items)); auto. Qed.

Definition decode_next_step {A R} (inj : A -> val) t (D : bytes -> outcome A) (injR : R -> val) ds items k k' :=
  @decode_step A R inj (dec t) D injR ds items _ k k' (gen_decoder_decode_next_eq items D).

(** ** [Tag3]: a tag enum *)
Definition T_Tag3 : ty := TTag 3.
Definition v_Tag3 (t : GenD.Tag3) : val :=
  match t with GenD.Tag3_A => VTag 0 | GenD.Tag3_B => VTag 1 | GenD.Tag3_C => VTag 2 end.
Theorem derive_Tag3_ssz_append t buf : GenD.Tag3_ssz_append t buf = Ok (append T_Tag3 (v_Tag3 t) buf).
Proof. destruct t; reflexivity. Qed.
Theorem derive_Tag3_ssz_bytes_len t : GenD.Tag3_ssz_bytes_len t = Ok (bytes_len T_Tag3 (v_Tag3 t)).
Proof. destruct t; reflexivity. Qed.
Theorem derive_Tag3_from_ssz_bytes bs : omap v_Tag3 (GenD.Tag3_from_ssz_bytes bs) = dec T_Tag3 bs.
Proof.
  unfold GenD.Tag3_from_ssz_bytes, T_Tag3. cbn [dec].
  destruct bs as [|b [|c r]].
  - reflexivity.
  - unfold llen. cbn [length N.of_nat N.eqb Pos.eqb Pos.of_succ_nat negb hd_error ok_or bind].
    destruct (N.eq_dec b 0) as [->|H0]; [reflexivity|].
    destruct (N.eq_dec b 1) as [->|H1]; [reflexivity|].
    destruct (N.eq_dec b 2) as [->|H2]; [reflexivity|].
    replace (b =? 0) with false by (symmetry; apply N.eqb_neq; exact H0).
    replace (b =? 1) with false by (symmetry; apply N.eqb_neq; exact H1).
    replace (b =? 2) with false by (symmetry; apply N.eqb_neq; exact H2).
    cbn [omap]. destruct (b <? _) eqn:E; [apply N.ltb_lt in E; lia | reflexivity].
  - unfold llen. cbn [length].
    replace (N.of_nat (S (S (length r))) =? 1) with false by (symmetry; apply N.eqb_neq; lia). reflexivity.
Qed.

(** ** [Wrap]: a transparent tuple struct over [Vec<u8>] *)
Definition T_Wrap : ty := TWrap (TList (TUint 1)).
Definition v_Wrap (w : GenD.Wrap) : val := v_list (GenD.Wrap_f0 w).
Theorem derive_Wrap_ssz_append w buf : llen (GenD.Wrap_f0 w) <= usize_max ->
  GenD.Wrap_ssz_append w buf = Ok (append T_Wrap (v_Wrap w) buf).
Proof.
  intro H. unfold GenD.Wrap_ssz_append. leaf_meta. change (8 / 8) with 1. rewrite vec_u8_append by exact H. reflexivity.
Qed.
Theorem derive_Wrap_ssz_bytes_len w : llen (GenD.Wrap_f0 w) <= usize_max ->
  GenD.Wrap_ssz_bytes_len w = Ok (bytes_len T_Wrap (v_Wrap w)).
Proof.
  intro H. unfold GenD.Wrap_ssz_bytes_len. leaf_meta. change (8 / 8) with 1. rewrite vec_u8_bytes_len by exact H. reflexivity.
Qed.
Theorem derive_Wrap_from_ssz_bytes bs : omap v_Wrap (GenD.Wrap_from_ssz_bytes bs) = dec T_Wrap bs.
Proof.
  unfold GenD.Wrap_from_ssz_bytes. leaf_meta. change (8 / 8) with 1. rewrite <- (vec_u8_from bs : _ = dec T_Wrap bs).
  destruct (Gen.vec_from_ssz_bytes true 1 Gen.u8_from_ssz_bytes bs); reflexivity.
Qed.

(** ** [U2]: a union enum *)
Definition T_U2 : ty := TUnion [TUint 1; TList (TUint 1)].
Definition v_U2 (u : GenD.U2) : val :=
  match u with GenD.U2_A x => VUnion 0 (VUint x) | GenD.U2_B x => VUnion 1 (v_list x) end.
Theorem derive_U2_ssz_append u buf :
  (match u with GenD.U2_B x => llen x <= usize_max | _ => True end) ->
  GenD.U2_ssz_append u buf = Ok (append T_U2 (v_U2 u) buf).
Proof.
  intro H. destruct u as [x|x]; unfold GenD.U2_ssz_append; [reflexivity|].
  leaf_meta. change (8 / 8) with 1. rewrite vec_u8_append by exact H. reflexivity.
Qed.
Theorem derive_U2_ssz_bytes_len u :
  (match u with GenD.U2_B x => llen x < usize_max | _ => True end) ->
  GenD.U2_ssz_bytes_len u = Ok (bytes_len T_U2 (v_U2 u)).
Proof.
  intro H. destruct u as [x|x]; unfold GenD.U2_ssz_bytes_len; [reflexivity|].
  leaf_meta. change (8 / 8) with 1. rewrite vec_u8_bytes_len by lia. cbn [bind].
  change (bytes_len T_U2 (v_U2 (GenD.U2_B x))) with (bytes_len (TList (TUint 1)) (v_list x) + 1).
  rewrite bytes_len_list_uint, checked_add_ok by lia. reflexivity.
Qed.

Theorem derive_U2_from_ssz_bytes bs : omap v_U2 (GenD.U2_from_ssz_bytes bs) = dec T_U2 bs.
Proof.
  unfold GenD.U2_from_ssz_bytes, T_U2. rewrite dec_union_chain, gen_split_union_bytes_eq.
  destruct (split_union_bytes bs) as [[sel body]| |]; cbn [bind omap map sel_chain N.of_nat Pos.of_succ_nat Pos.succ]; try reflexivity.
  destruct (sel =? 0).
  - rewrite <- (gen_u8_from_ssz_bytes_eq body). destruct (Gen.u8_from_ssz_bytes body); reflexivity.
  - destruct (sel =? 1); [|reflexivity]. leaf_meta. change (8 / 8) with 1.
    rewrite <- (vec_u8_from body). destruct (Gen.vec_from_ssz_bytes true 1 Gen.u8_from_ssz_bytes body); reflexivity.
Qed.

(** ** [FixedPair]: an all-fixed container (the [split_at] path) *)
Definition T_FixedPair : ty := TContainer true [TUint 2; TUint 1].
Definition v_FixedPair (r : GenD.FixedPair) : val := VCont [VUint (GenD.FixedPair_a r); VUint (GenD.FixedPair_b r)].
Theorem derive_FixedPair_ssz_append r buf :
  GenD.FixedPair_ssz_append r buf = Ok (append T_FixedPair (v_FixedPair r) buf).
Proof.
  unfold GenD.FixedPair_ssz_append. leaf_meta.
  apply (container_append true [TUint 2; TUint 1] [VUint (GenD.FixedPair_a r); VUint (GenD.FixedPair_b r)]
           [put true Gen.u16_ssz_append (GenD.FixedPair_a r); put true Gen.u8_ssz_append (GenD.FixedPair_b r)] buf).
  - repeat constructor; apply put_as; reflexivity.
  - vm_compute. discriminate.
Qed.

Theorem derive_FixedPair_ssz_bytes_len r :
  GenD.FixedPair_ssz_bytes_len r = Ok (bytes_len T_FixedPair (v_FixedPair r)).
Proof. reflexivity. Qed.

Theorem derive_FixedPair_from_ssz_bytes bs :
  omap v_FixedPair (GenD.FixedPair_from_ssz_bytes bs) = dec T_FixedPair bs.
Proof.
  unfold GenD.FixedPair_from_ssz_bytes.
  change GenD.FixedPair_dec_is_ssz_fixed_len with (Ok true : outcome bool).
  change GenD.FixedPair_dec_ssz_fixed_len with (Ok 3 : outcome N). leaf_meta.
  apply (split_path [TUint 2; TUint 1]); [reflexivity|].
  apply (split_step VUint (TUint 2)); [exact gen_u16_from_ssz_bytes_eq|]. intros a rest.
  apply (split_step VUint (TUint 1)); [exact gen_u8_from_ssz_bytes_eq|]. intros b rest'.
  reflexivity.
Qed.

(** ** [Mixed]: a container with fixed and variable fields (the [SszEncoder] / [SszDecoderBuilder] path) *)
Definition T_Mixed : ty := TContainer true [TUint 2; TList (TUint 1); TUint 4; TList (TUint 2)].
Definition v_Mixed (r : GenD.Mixed) : val :=
  VCont [VUint (GenD.Mixed_a r); v_list (GenD.Mixed_b r); VUint (GenD.Mixed_c r); v_list (GenD.Mixed_d r)].
Theorem derive_Mixed_ssz_append r buf :
  14 + llen (GenD.Mixed_b r) + 2 * llen (GenD.Mixed_d r) <= usize_max ->
  GenD.Mixed_ssz_append r buf = Ok (append T_Mixed (v_Mixed r) buf).
Proof.
  intro H. unfold GenD.Mixed_ssz_append. leaf_meta.
  apply (container_append true [TUint 2; TList (TUint 1); TUint 4; TList (TUint 2)]
           [VUint (GenD.Mixed_a r); v_list (GenD.Mixed_b r); VUint (GenD.Mixed_c r); v_list (GenD.Mixed_d r)]
           [put true Gen.u16_ssz_append (GenD.Mixed_a r); put false (Gen.vec_ssz_append true 1 Gen.u8_ssz_append) (GenD.Mixed_b r);
            put true Gen.u32_ssz_append (GenD.Mixed_c r); put false (Gen.vec_ssz_append true 2 Gen.u16_ssz_append) (GenD.Mixed_d r)] buf).
  - repeat constructor; apply put_as; intro; [reflexivity | apply vec_u8_append; lia | reflexivity | apply vec_u16_append; lia].
  - change (sumN (map e_fixed_len _)) with 14.
    cbn [map sumN combine removelast var_len fst snd e_is_fixed]. rewrite len_enc_list_uint. lia.
Qed.

Theorem derive_Mixed_ssz_bytes_len r :
  14 + llen (GenD.Mixed_b r) + 2 * llen (GenD.Mixed_d r) <= usize_max ->
  GenD.Mixed_ssz_bytes_len r = Ok (bytes_len T_Mixed (v_Mixed r)).
Proof.
  intro H. unfold GenD.Mixed_ssz_bytes_len, GenD.Mixed_enc_is_ssz_fixed_len. leaf_meta.
  change (8 / 8) with 1. change (16 / 8) with 2.
  rewrite (vec_u8_bytes_len (GenD.Mixed_b r)), (vec_u16_bytes_len (GenD.Mixed_d r)) by lia.
  apply (container_bytes_len true [TUint 2; TList (TUint 1); TUint 4; TList (TUint 2)]
           [VUint (GenD.Mixed_a r); v_list (GenD.Mixed_b r); VUint (GenD.Mixed_c r); v_list (GenD.Mixed_d r)] eq_refl).
  cbn [map sumN combine fst snd]. unfold field_len. cbn [e_is_fixed]. rewrite !bytes_len_list_uint.
  change (e_fixed_len (TUint 2)) with 2. change (e_fixed_len (TUint 4)) with 4. unfold BYTES_PER_LENGTH_OFFSET. lia.
Qed.

Theorem derive_Mixed_from_ssz_bytes bs :
  omap v_Mixed (GenD.Mixed_from_ssz_bytes bs) = dec T_Mixed bs.
Proof.
  unfold GenD.Mixed_from_ssz_bytes, GenD.Mixed_dec_is_ssz_fixed_len. leaf_meta.
  apply (builder_path true [TUint 2; TList (TUint 1); TUint 4; TList (TUint 2)]); [reflexivity|]. intro items.
  apply (decode_next_step VUint (TUint 2)); [exact gen_u16_from_ssz_bytes_eq|]. intros a its.
  apply (decode_next_step v_list (TList (TUint 1))); [exact vec_u8_from|]. intros b its1.
  apply (decode_next_step VUint (TUint 4)); [exact gen_u32_from_ssz_bytes_eq|]. intros c its2.
  apply (decode_next_step v_list (TList (TUint 2))); [exact vec_u16_from|]. intros d its3.
  reflexivity.
Qed.

(** ** metadata: closed terms, evaluated by the kernel *)
Theorem derive_metadata :
  GenD.FixedPair_enc_is_ssz_fixed_len = Ok (e_is_fixed T_FixedPair) /\ GenD.FixedPair_enc_ssz_fixed_len = Ok (e_fixed_len T_FixedPair) /\
  GenD.FixedPair_dec_is_ssz_fixed_len = Ok (d_is_fixed T_FixedPair) /\ GenD.FixedPair_dec_ssz_fixed_len = Ok (d_fixed_len T_FixedPair) /\
  GenD.Mixed_enc_is_ssz_fixed_len = Ok (e_is_fixed T_Mixed) /\ GenD.Mixed_enc_ssz_fixed_len = Ok (e_fixed_len T_Mixed) /\
  GenD.Mixed_dec_is_ssz_fixed_len = Ok (d_is_fixed T_Mixed) /\ GenD.Mixed_dec_ssz_fixed_len = Ok (d_fixed_len T_Mixed) /\
  GenD.U2_enc_is_ssz_fixed_len = Ok (e_is_fixed T_U2) /\ GenD.U2_dec_is_ssz_fixed_len = Ok (d_is_fixed T_U2) /\
  GenD.Tag3_enc_is_ssz_fixed_len = Ok (e_is_fixed T_Tag3) /\ GenD.Tag3_enc_ssz_fixed_len = Ok (e_fixed_len T_Tag3) /\
  GenD.Tag3_dec_is_ssz_fixed_len = Ok (d_is_fixed T_Tag3) /\ GenD.Tag3_dec_ssz_fixed_len = Ok (d_fixed_len T_Tag3) /\
  GenD.Wrap_enc_is_ssz_fixed_len = Ok (e_is_fixed T_Wrap) /\ GenD.Wrap_enc_ssz_fixed_len = Ok (e_fixed_len T_Wrap) /\
  GenD.Wrap_dec_is_ssz_fixed_len = Ok (d_is_fixed T_Wrap) /\ GenD.Wrap_dec_ssz_fixed_len = Ok (d_fixed_len T_Wrap).
Proof. repeat split; vm_compute; reflexivity. Qed.

Print Assumptions derive_metadata.
Print Assumptions derive_Tag3_from_ssz_bytes.
Print Assumptions derive_Wrap_from_ssz_bytes.
Print Assumptions derive_U2_from_ssz_bytes.
Print Assumptions derive_U2_ssz_append.
Print Assumptions derive_FixedPair_from_ssz_bytes.
Print Assumptions derive_FixedPair_ssz_append.
Print Assumptions derive_Mixed_ssz_append.
Print Assumptions derive_Mixed_ssz_bytes_len.
Print Assumptions derive_Mixed_from_ssz_bytes.
