(** * GenPropsTuple: C01 / C02 / C05 / C19 stated about the tuple and [BTreeMap] impls as rustc expands them
    (GeneratedDerive.v), for every component / key / value type expression. *)
From SSZ Require Import Base RustSem Offsets Encoder Builder Types Codec CodecUnfold BaseFacts OffsetsFacts LayoutFacts AppendFacts MetaFacts
     ListDecFacts NoPanic Canon OrderFacts RoundTrip LeafIface LeafProof SizeFacts Strict
     Generated GenEquiv GenEquivDec GenEquivEnc GenProps GeneratedDerive GenEquivDerive GenEquivDerive2 GenEquivTuple GenEquivMap GenPropsCodec GenPropsDerive.
From Coq Require Import ZArith ZifyN ZifyBool ZifyNat Lia.
Open Scope N_scope.

Definition T2 (tA tB : ty) : ty := TContainer false [tA; tB].

(** ** The round trip and canonicity of a tuple of any arity, stated about the chains of GenEquivTuple *)
Theorem chain_round_trip {R} t0 ts vs (k : list val -> outcome R) :
  rt_type (TContainer false (t0 :: ts)) = true -> has_ty (TContainer false (t0 :: ts)) (VCont vs) = true ->
  len (enc (TContainer false (t0 :: ts)) (VCont vs)) < two32 ->
  fold_left N.add (map e_fixed_len ts ++ map enc_len (removelast (combine (t0 :: ts) vs))) (e_fixed_len t0) <= usize_max ->
  (do bs <- append_chain_run t0 ts vs []; from_chain (t0 :: ts) bs k) = k vs.
Proof.
  intros Hrt Hty Hlen Hfit. rewrite append_chain_run_eq by exact Hfit. cbn [bind].
  apply from_chain_ok. exact (rt_facts leaf_facts _ Hrt _ Hty Hlen).
Qed.

Theorem chain_canonical {R} ts bs (k : list val -> outcome R) p :
  canon_type (TContainer false ts) = true -> phys bs -> from_chain ts bs k = Ok p ->
  exists vs, k vs = Ok p /\ has_ty (TContainer false ts) (VCont vs) = true /\ enc (TContainer false ts) (VCont vs) = bs.
Proof.
  intros Hc Hp Hr. rewrite from_chain_eq in Hr. pose proof (dec_container false ts bs) as Hd. cbn [andb] in Hd.
  destruct (builder_build (regs_of ts) bs) as [items| |]; cbn [bind] in *; try discriminate.
  destruct (decode_all items (map dec ts)) as [vs| |]; cbn [bind omap] in *; try discriminate.
  exists vs. split; [exact Hr|]. destruct (canon_facts leaf_facts _ Hc bs (VCont vs) Hp Hd) as (He & Hty). split; assumption.
Qed.

(** the length of a container's encoding is the sum of its fields' shares, whatever their size classes *)
Lemma field_len_ge t v : has_ty t v = true -> len (enc t v) <= field_len t v.
Proof.
  intro Hty. unfold field_len. destruct (e_is_fixed t) eqn:EF.
  - rewrite (proj2 (size_facts leaf_facts t v Hty) EF). lia.
  - rewrite <- (proj1 (size_facts leaf_facts t v Hty)). lia.
Qed.

Lemma fixed_len_le_field_len t v : e_fixed_len t <= field_len t v.
Proof.
  unfold field_len. destruct (e_is_fixed t) eqn:EF; [lia|]. rewrite (variable_fixed_len t EF). unfold BYTES_PER_LENGTH_OFFSET. lia.
Qed.

Lemma fields_sums fs : forall vs, has_ty_fields fs vs = true ->
  let flen := sumN (map (fun p => field_len (fst p) (snd p)) (combine fs vs)) in
  sumN (map e_fixed_len fs) <= flen /\ sumN (map enc_len (removelast (combine fs vs))) <= flen /\
  (forallb e_is_fixed fs = true -> sumN (map e_fixed_len fs) = flen).
Proof.
  induction fs as [|f fs IH]; intros [|v vs] Hty; try (rewrite ?has_ty_fields_nil_l, ?has_ty_fields_nil_r in Hty; discriminate).
  - repeat split; cbn; lia.
  - rewrite has_ty_fields_cons in Hty. apply andb_prop in Hty as [Hv Hr]. destruct (IH vs Hr) as (I1 & I2 & I3).
    pose proof (field_len_ge f v Hv). pose proof (fixed_len_le_field_len f v).
    cbn [combine map sumN fst snd forallb] in *. repeat split.
    + lia.
    + destruct (combine fs vs) eqn:E; cbn [removelast map sumN] in *; [lia|]. unfold enc_len at 1. cbn [fst snd]. lia.
    + intro HF. apply andb_prop in HF as [HF1 HF2]. unfold field_len at 1. rewrite HF1, (I3 HF2). reflexivity.
Qed.

(** what [ssz_append] asks of a tuple follows from a bound on its encoding *)
Lemma chain_fits t0 ts vs :
  has_ty (TContainer false (t0 :: ts)) (VCont vs) = true -> 2 * len (enc (TContainer false (t0 :: ts)) (VCont vs)) <= usize_max ->
  fold_left N.add (map e_fixed_len ts ++ map enc_len (removelast (combine (t0 :: ts) vs))) (e_fixed_len t0) <= usize_max.
Proof.
  intros Hty H. rewrite <- (proj1 (size_facts leaf_facts _ _ Hty)), bytes_len_container in H.
  rewrite has_ty_container in Hty. destruct (fields_sums _ _ Hty) as (I1 & I2 & I3).
  rewrite fold_add_sum, sumN_app. cbn [map sumN] in I1.
  destruct (forallb e_is_fixed (t0 :: ts)); [rewrite (I3 eq_refl) in H|]; lia.
Qed.

(** C01: a 2-tuple encoded by the expanded impl decodes, by the expanded impl, to itself *)
Theorem Src_C01_tuple2 tA tB a b :
  rt_type (T2 tA tB) = true -> has_ty (T2 tA tB) (VCont [a; b]) = true -> len (enc (T2 tA tB) (VCont [a; b])) < two32 ->
  e_fixed_len tA + e_fixed_len tB + len (enc tA a) <= usize_max ->
  (do bs <- GenD.tuple2_ssz_append (e_is_fixed tA) (e_fixed_len tA) (app_of tA) (e_is_fixed tB) (e_fixed_len tB) (app_of tB) (a, b) [];
   GenD.tuple2_from_ssz_bytes (d_is_fixed tA) (d_fixed_len tA) (dec tA) (d_is_fixed tB) (d_fixed_len tB) (dec tB) bs) = Ok (a, b).
Proof.
  intros Hrt Hty Hlen Hfit. apply (chain_round_trip tA [tB] [a; b] tup2 Hrt Hty Hlen). exact Hfit.
Qed.

(** C02: what the expanded tuple decoder accepts re-encodes, by the expanded encoder, to the same bytes *)
Theorem Src_C02_tuple2 tA tB bs p :
  canon_type (T2 tA tB) = true -> phys bs -> 2 * (e_fixed_len tA + e_fixed_len tB) <= usize_max ->
  GenD.tuple2_from_ssz_bytes (d_is_fixed tA) (d_fixed_len tA) (dec tA) (d_is_fixed tB) (d_fixed_len tB) (dec tB) bs = Ok p ->
  GenD.tuple2_ssz_append (e_is_fixed tA) (e_fixed_len tA) (app_of tA) (e_is_fixed tB) (e_fixed_len tB) (app_of tB) p [] = Ok bs.
Proof.
  intros Hc Hp HF Hr.
  destruct (chain_canonical [tA; tB] bs tup2 p Hc Hp Hr) as ([|a [|b [|]]] & Hk & Hty & He); try discriminate.
  injection Hk as <-. rewrite <- He. apply (append_chain_run_eq tA [tB] [a; b]).
  cbn [fold_left map app removelast combine]. unfold enc_len. cbn [fst snd].
  (* both fixed: the first component is shorter than the fixed part; otherwise the encoding holds an offset or the
     component itself for every 4 bytes counted here *)
  destruct Hp as [_ Hl]. rewrite <- He, <- (proj1 (size_facts leaf_facts _ _ Hty)), bytes_len_container in Hl.
  rewrite has_ty_container, has_ty_fields_cons in Hty. apply andb_prop in Hty as [Ha _].
  pose proof (field_len_ge tA a Ha). pose proof (proj1 (size_facts leaf_facts tA a Ha)). pose proof (fixed_len_le_field_len tB b).
  cbn [forallb combine map sumN fst snd] in Hl. unfold field_len, BYTES_PER_LENGTH_OFFSET in *.
  destruct (e_is_fixed tA) eqn:EA, (e_is_fixed tB); cbn [andb] in Hl; try rewrite (variable_fixed_len tA EA); lia.
Qed.


(** C19 / C01: a map encoded by the expanded impl decodes, by the expanded impl, to itself *)
Lemma map_pair_val_inj l l' : map pair_val l' = map pair_val l -> l' = l.
Proof.
  revert l'. induction l as [|x r IH]; destruct l' as [|y r']; cbn [map]; intro H; try discriminate; [reflexivity|].
  injection H as Hx Hy Hr. f_equal; [destruct x, y; cbn [fst snd] in *; congruence | apply IH; exact Hr].
Qed.

Theorem Src_C19_map_round_trip k v (es : list (val * val)) :
  rt_type (TMap k v) = true -> has_ty (TMap k v) (VList (map pair_val es)) = true ->
  len (enc (TMap k v) (VList (map pair_val es))) < two32 ->
  e_fixed_len k + e_fixed_len v <= usize_max ->
  (forall p, In p es -> e_fixed_len k + e_fixed_len v + len (enc k (fst p)) <= usize_max) ->
  (if e_is_fixed (TEntry k v) then e_fixed_len (TEntry k v) * llen es <= usize_max
   else llen es * 4 <= usize_max /\ fits_run (fun p => append (TEntry k v) (pair_val p)) (llen es * 4) [] es) ->
  (do bs <- GenD.btreemap_ssz_append (e_is_fixed k) (e_fixed_len k) (app_of k) (e_is_fixed v) (e_fixed_len v) (app_of v) es [];
   GenD.btreemap_from_ssz_bytes (d_is_fixed k) (d_fixed_len k) (dec k) val_cmp (d_is_fixed v) (d_fixed_len v) (dec v) bs) = Ok es.
Proof.
  intros Hrt Hty Hlen HF Hit Hseq.
  apply (src_round_trip_at (TMap k v) (fun l => VList (map pair_val l))
           (fun l buf => GenD.btreemap_ssz_append (e_is_fixed k) (e_fixed_len k) (app_of k) (e_is_fixed v) (e_fixed_len v) (app_of v) l buf)
           (GenD.btreemap_from_ssz_bytes (d_is_fixed k) (d_fixed_len k) (dec k) val_cmp (d_is_fixed v) (d_fixed_len v) (dec v)) es).
  - intros l' H. injection H as H. apply map_pair_val_inj. exact H.
  - exact Hrt.
  - exact Hty.
  - exact Hlen.
  - apply gen_btreemap_ssz_append; assumption.
  - apply gen_btreemap_is_dec_TMap; [|rewrite <- !fixed_len_agree; exact HF].
    unfold two32 in Hlen. pose proof usize_max_val. lia.
Qed.

(** C05: the expanded tuple, set and map decoders never panic on a physical input *)
Theorem Src_C05_collections_no_panic bs :
  phys bs ->
  (forall tA tB, GenD.tuple2_from_ssz_bytes (d_is_fixed tA) (d_fixed_len tA) (dec tA) (d_is_fixed tB) (d_fixed_len tB) (dec tB) bs <> Panic) /\
  (forall tA tB tC, GenD.tuple3_from_ssz_bytes (d_is_fixed tA) (d_fixed_len tA) (dec tA) (d_is_fixed tB) (d_fixed_len tB) (dec tB)
                      (d_is_fixed tC) (d_fixed_len tC) (dec tC) bs <> Panic) /\
  (forall t, Gen.btreeset_from_ssz_bytes (d_is_fixed t) (d_fixed_len t) (dec t) val_cmp bs <> Panic) /\
  (forall t n, Gen.smallvec_from_ssz_bytes n (d_is_fixed t) (d_fixed_len t) (dec t) bs <> Panic) /\
  (forall k v, d_fixed_len k + d_fixed_len v <= usize_max ->
     GenD.btreemap_from_ssz_bytes (d_is_fixed k) (d_fixed_len k) (dec k) val_cmp (d_is_fixed v) (d_fixed_len v) (dec v) bs <> Panic).
Proof.
  intro Hp. destruct Hp as (Hw & Hl).
  assert (NP : forall t, dec t bs <> Panic) by (intro t; apply (NoPanic.nopanic_facts leaf_facts t bs); split; assumption).
  repeat split.
  - intros tA tB. exact (no_panic_under_omap (gen_tuple2_from_ssz_bytes tA tB bs) (NP (TContainer false [tA; tB]))).
  - intros tA tB tC. exact (no_panic_under_omap (gen_tuple3_from_ssz_bytes tA tB tC bs) (NP (TContainer false [tA; tB; tC]))).
  - intro t. exact (no_panic_under_omap (gen_btreeset_is_dec_TSet t bs Hl) (NP (TSet t))).
  - intros t n. exact (no_panic_under_omap (gen_smallvec_is_dec_TList n t bs Hl) (NP (TList t))).
  - intros k v HF. exact (no_panic_under_omap (gen_btreemap_is_dec_TMap k v bs Hl HF) (NP (TMap k v))).
Qed.

Print Assumptions Src_C01_tuple2.
Print Assumptions Src_C02_tuple2.
Print Assumptions Src_C19_map_round_trip.
Print Assumptions Src_C05_collections_no_panic.
