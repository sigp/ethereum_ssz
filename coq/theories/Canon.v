(** * Canonical decoding: accepted bytes re-encode to exactly themselves (C02), and the decoded
    value is well typed. *)
From SSZ Require Import BaseFacts OffsetsFacts BuilderFacts Layout LayoutFacts Codec CodecUnfold MetaFacts
     AppendFacts LeafIface SizeFacts ListDecFacts SpecFacts RoundTrip.
From Coq Require Import ZArith ZifyN ZifyNat ZifyBool.
Open Scope N_scope.

Definition canon_ok (t : ty) : Prop :=
  canon_type t = true ->
  forall bs v, phys bs -> dec t bs = Ok v -> enc t v = bs /\ has_ty t v = true.

Lemma wfb_concat_inv (l : list bytes) : wfb (concat l) -> Forall wfb l.
Proof. apply concat_slices, wfb_slice_closed. Qed.

Lemma wfb_asm_inv nf parts : wfb (assemble nf parts) -> Forall (fun p : part => wfb (snd p)) parts.
Proof. apply sc_asm, wfb_slice_closed. Qed.

Lemma builder_items_phys regs bs items :
  phys bs -> builder_build regs bs = Ok items -> Forall phys items.
Proof.
  intros Hp Hb. pose proof (builder_build_length _ _ _ Hb) as Hl.
  apply (builder_build_tiles _ _ _ (proj1 Hp) (proj2 Hp)) in Hb as (_ & _ & _ & Hbs). cbv zeta in Hbs.
  rewrite Hbs in Hp. apply (sc_asm phys _ _ phys_slice_closed) in Hp.
  rewrite <- (map_snd_combine' (map fst regs) items) by now rewrite map_length.
  rewrite Forall_forall in *. intros s Hs. apply in_map_iff in Hs as (p & <- & Hs). now apply Hp.
Qed.

Lemma canon_seq t bs vs :
  canon_ok t -> canon_type t = true -> phys bs ->
  dec_seq (d_is_fixed t) (d_fixed_len t) (dec t) bs = Ok vs ->
  seq_enc (e_is_fixed t) (map (enc t) vs) = bs /\ forallb (has_ty t) vs = true.
Proof.
  intros Ht Hc Hp Hd.
  apply (dec_seq_ok phys _ _ _ _ _ phys_slice_closed Hp (proj1 Hp)) in Hd as (slices & -> & Hs & Hm).
  apply mapM_ok_Forall2 in Hm. rewrite is_fixed_agree.
  enough (map (enc t) vs = slices /\ forallb (has_ty t) vs = true) as [-> ->] by auto.
  clear Hp. induction Hm as [|s x slices vs Hsx _ IH]; [now split|].
  inversion Hs as [|? ? Hps Hs']; subst. destruct (Ht Hc s x Hps Hsx) as [He Hx].
  destruct (IH Hs') as [I1 I2]. cbn [map forallb]. now rewrite He, I1, Hx, I2.
Qed.

Lemma canon_fields fs : Forall canon_ok fs -> Forall (fun f => canon_type f = true) fs ->
  forall slices xs, Forall phys slices -> length slices = length fs ->
  decode_all slices (map dec fs) = Ok xs ->
  map snd (cont_parts fs xs) = slices /\ has_ty_fields fs xs = true.
Proof.
  unfold cont_parts.
  induction 1 as [|f fs Hf _ IH]; intros Hc [|s slices] xs Hw Hl Hd; try discriminate.
  - injection Hd as <-. now split.
  - inversion Hc as [|? ? Hcf Hc']; subst. inversion Hw as [|? ? Hs Hw']; subst.
    cbn [map decode_all decode_next] in Hd. apply bind_ok in Hd as ([x' r] & Hx & Hd).
    apply bind_ok in Hx as (x & Hx & [= <- <-]). apply bind_ok in Hd as (xs' & Hd & [= <-]).
    destruct (Hf Hcf s x Hs Hx) as [He Hty]. injection Hl as Hl.
    destruct (IH Hc' slices xs' Hw' Hl Hd) as [I1 I2].
    cbn [combine map fst snd]. now rewrite has_ty_fields_cons, He, I1, Hty, I2.
Qed.

Lemma canon_container (L : LeafFacts) d fs : Forall canon_ok fs -> canon_ok (TContainer d fs).
Proof.
  intros HF Hc bs v Hp Hd. apply ty_all_inv in Hc as [_ Hc]. rewrite (dec_container_builder d fs bs Hp) in Hd.
  apply bind_ok in Hd as (items & Hb & Hd). apply omap_ok in Hd as (xs & Hd & ->).
  pose proof (builder_build_length _ _ _ Hb) as Hl. unfold regs_of in Hl. rewrite map_length in Hl.
  destruct (canon_fields fs HF Hc items xs (builder_items_phys _ _ _ Hp Hb) Hl Hd) as [I1 I2].
  apply (builder_build_tiles _ _ _ (proj1 Hp) (proj2 Hp)) in Hb as (_ & _ & _ & ->). cbv zeta.
  rewrite has_ty_container, enc_container, (fixed_size_cont_parts L fs xs I2). split; [|exact I2].
  replace (combine (map fst (regs_of fs)) items) with (cont_parts fs xs); [reflexivity|].
  rewrite <- (combine_fst_snd (cont_parts fs xs)), I1, (cont_parts_fst fs xs I2).
  unfold regs_of. now rewrite map_map.
Qed.

Theorem canon_facts (L : LeafFacts) t : canon_ok t.
Proof.
  induction t using ty_ind'; intros Hc bs v Hp Hd; pose proof (proj1 Hp) as Hw.
  - (* TUint *) cbn [dec] in Hd. destruct (len bs =? N.of_nat k) eqn:El; [|discriminate]. injection Hd as <-.
    apply N.eqb_eq in El. unfold len in El. apply Nat2N.inj in El. subst k.
    unfold enc. cbn [append app has_ty]. split; [now apply le_bytes_le_val|].
    rewrite N.pow_mul_r. pose proof (le_val_bound bs Hw). change (2 ^ 8) with 256. lia.
  - (* TBool *) cbn [dec] in Hd. unfold dec_bool in Hd. destruct bs as [|b [|? ?]]; try discriminate.
    destruct (b =? 0) eqn:E0; [injection Hd as <-; apply N.eqb_eq in E0; subst; split; reflexivity|].
    destruct (b =? 1) eqn:E1; [injection Hd as <-; apply N.eqb_eq in E1; subst; split; reflexivity|discriminate].
  - (* TNonZero *) cbn [dec] in Hd. destruct (len bs =? 8) eqn:El; [|discriminate].
    destruct (le_val bs =? 0) eqn:E0; [discriminate|]. injection Hd as <-.
    apply N.eqb_eq in El. unfold len in El.
    assert (Hl : length bs = 8%nat) by lia.
    unfold enc. cbn [append app has_ty]. split; [rewrite <- Hl; now apply le_bytes_le_val|].
    pose proof (le_val_bound bs Hw) as B. rewrite Hl in B. change (256 ^ N.of_nat 8) with (2 ^ 64) in B. lia.
  - (* TBytesN *) cbn [dec] in Hd. destruct (len bs =? N.of_nat n) eqn:El; [|discriminate]. injection Hd as <-.
    apply N.eqb_eq in El. unfold len in El. apply Nat2N.inj in El.
    unfold enc. cbn [append app has_ty]. split; [reflexivity|].
    apply andb_true_intro. split; [now apply wfbb_wfb|now apply Nat.eqb_eq].
  - (* TByteList *) cbn [dec] in Hd. injection Hd as <-. unfold enc. cbn [append app has_ty].
    split; [reflexivity|now apply wfbb_wfb].
  - (* TList *) destruct (ty_all_inv _ _ Hc) as [_ Hc'].
    cbn [dec] in Hd. apply omap_ok in Hd as (vs & Hd & ->).
    destruct (canon_seq t bs vs IHt Hc' Hp Hd) as [He Hty]. rewrite enc_list. cbn [has_ty]. auto.
  - (* TSet *) apply ty_all_inv in Hc as [Hn _]. unfold node_canon in Hn. now rewrite andb_false_r in Hn.
  - (* TMap *) apply ty_all_inv in Hc as [Hn _]. unfold node_canon in Hn. now rewrite andb_false_r in Hn.
  - (* TOption *) destruct (ty_all_inv _ _ Hc) as [_ Hc'].
    destruct bs as [|s body]; [discriminate|]. rewrite dec_option_selector in Hd.
    destruct (s =? 0) eqn:E0.
    + destruct body; [|discriminate]. injection Hd as <-. apply N.eqb_eq in E0. subst. split; reflexivity.
    + destruct (s =? 1) eqn:E1; [|discriminate]. apply omap_ok in Hd as (x & Hd & ->).
      destruct (IHt Hc' body x (phys_cons _ _ Hp) Hd) as [He Hty]. apply N.eqb_eq in E1. subst s.
      rewrite enc_option_some, He. cbn [has_ty]. auto.
  - now apply (canon_container L d fs H).
  - (* TUnion *) apply ty_all_inv in Hc as [Hn Hc]. rewrite Forall_forall in Hc.
    unfold node_canon in Hn. rewrite andb_true_r in Hn. cbn [node_wf] in Hn. apply andb_prop in Hn as [_ Hn].
    destruct bs as [|s body]; [now rewrite dec_union_empty in Hd|]. rewrite dec_union_selector in Hd.
    destruct (s <=? 127) eqn:Es; [|discriminate].
    destruct (nth_error vs (N.to_nat s)) as [t|] eqn:E; [|discriminate].
    apply omap_ok in Hd as (x & Hd & ->). rewrite Forall_forall in H.
    pose proof (nth_error_In _ _ E) as HI.
    destruct (H t HI (Hc t HI) body x (phys_cons _ _ Hp) Hd) as [He Hty].
    rewrite enc_union, E, He, N2Nat.id. split; [reflexivity|].
    rewrite has_ty_union, Hn. unfold pick_has_ty. now rewrite E.
  - (* TTag *) apply ty_all_inv in Hc as [Hc _].
    unfold node_canon in Hc. rewrite andb_true_r in Hc. cbn [node_wf] in Hc. apply andb_prop in Hc as [_ Hn].
    cbn [dec] in Hd. destruct bs as [|b [|? ?]]; try discriminate.
    destruct (b <? N.of_nat n) eqn:Eb; [|discriminate]. injection Hd as <-.
    unfold enc. cbn [append app has_ty]. rewrite N2Nat.id, Hn, andb_true_r. split; [reflexivity|].
    apply Nat.ltb_lt. lia.
  - (* TTransEnum *) apply ty_all_inv in Hc as [Hn _]. unfold node_canon in Hn. now rewrite andb_false_r in Hn.
  - (* TWrap *) exact (IHt (proj2 (ty_all_inv _ _ Hc)) bs v Hp Hd).
  - (* TBitVector *) cbn [dec] in Hd. apply omap_ok in Hd as (b & Hd & ->).
    destruct (lf_bv_canon L n bs b Hw Hd) as [He Hl]. unfold enc. cbn [append app has_ty].
    split; [exact He|now apply N.eqb_eq].
  - cbn [dec] in Hd. apply omap_ok in Hd as (b & Hd & ->).
    destruct (lf_bl_canon L n bs b Hw Hd) as [He Hl]. unfold enc. cbn [append app has_ty].
    split; [exact He|now apply N.leb_le].
  - cbn [dec] in Hd. apply omap_ok in Hd as (b & Hd & ->).
    destruct (lf_bd_canon L bs b Hw Hd) as (He & H0 & H8). unfold enc. cbn [append app has_ty].
    split; [exact He|]. apply andb_true_intro. split; [apply N.ltb_lt; lia|now apply N.eqb_eq].
  - (* TLegacyOpt *) destruct (ty_all_inv _ _ Hc) as [_ Hc'].
    rewrite dec_legacy in Hd. destruct (len bs <? 4) eqn:El; [discriminate|].
    assert (H4 : length (take 4 bs) = 4%nat).
    { pose proof (len_take 4 bs ltac:(lia)) as Ht. unfold len in Ht. lia. }
    destruct (encode_length_le_val (take 4 bs) H4 (wfb_take 4 bs Hw)) as [Henc _].
    destruct (le_val (take 4 bs) =? 0) eqn:E0.
    + destruct (drop 4 bs) eqn:Edrop; [|discriminate]. injection Hd as <-.
      apply N.eqb_eq in E0. rewrite E0 in Henc. unfold enc. cbn [append app has_ty].
      split; [|reflexivity]. rewrite Henc. pose proof (take_drop 4 bs) as TD.
      rewrite Edrop, app_nil_r in TD. exact TD.
    + destruct (le_val (take 4 bs) =? 1) eqn:E1; [|discriminate]. apply omap_ok in Hd as (x & Hd & ->).
      destruct (IHt Hc' _ x (phys_drop 4 bs Hp) Hd) as [He Hty].
      apply N.eqb_eq in E1. rewrite E1 in Henc. rewrite enc_legacy_some, He, Henc. cbn [has_ty].
      split; [apply take_drop|exact Hty].
Qed.
