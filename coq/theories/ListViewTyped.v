(** * Whatever a decoder returns is well typed (every set / map strictly ascending, wherever it sits), and re-encoding
    it is a fixed point of the decoder: [collect_rec] turns a typed value of [list_view t] into a typed value of [t]
    ([collect_rec_typed]); the rest is [dec_by_collection] and canonicity of the collection-free view. *)
From SSZ Require Import Codec CodecUnfold ListDecFacts OrderFacts LeafProof RoundTrip Canon Strict
     ListView ListViewFacts.
From Coq Require Import List ZArith Lia Bool.
Import ListNotations.
Open Scope N_scope.

(** key types hold no sets or maps: their entry-list view is themselves *)
Lemma key_view k : key_type k = true -> list_view k = k /\ forall v, collect_rec k v = v.
Proof.
  induction k using ty_ind'; intro Hk; try discriminate; try (now split); cbn [key_type] in Hk.
  - (* list *) destruct (IHk Hk) as [E C]. cbn [list_view collect_rec]. rewrite E. split; [reflexivity|].
    intros [| | |l| | | | | |]; try reflexivity. now rewrite (map_ext _ (fun v => v) C), map_id.
  - (* option *) destruct (IHk Hk) as [E C]. cbn [list_view collect_rec]. rewrite E. split; [reflexivity|].
    intros []; try reflexivity. now rewrite C.
  - (* container *)
    assert (HF : Forall (fun f => list_view f = f /\ forall v, collect_rec f v = v) fs).
    { induction H as [|f r Hf _ IH]; constructor; apply andb_prop in Hk; [apply Hf|apply IH]; apply Hk. }
    split.
    + cbn [list_view]. f_equal. clear - HF. induction HF as [|f r [E _] _ IH]; cbn [map]; congruence.
    + intros []; try reflexivity. rewrite collect_rec_container. f_equal.
      clear - HF. revert vs. induction HF as [|f r [_ C] _ IH]; intros [|x xr]; cbn [collect_fields]; try reflexivity.
      now rewrite C, IH.
  - (* wrap *) destruct (IHk Hk) as [E C]. cbn [list_view collect_rec]. now rewrite E.
Qed.

Definition TypedView (t : ty) : Prop :=
  wf_type t = true -> forall L, has_ty (list_view t) L = true -> has_ty t (collect_rec t L) = true.

Lemma fields_typed fs : Forall TypedView fs -> Forall (fun f => wf_type f = true) fs -> forall vs,
  has_ty_fields (map list_view fs) vs = true -> has_ty_fields fs (collect_fields fs vs) = true.
Proof.
  induction 1 as [|f r Hf _ IH]; intros Hw [|x xr] Hty; try discriminate; [reflexivity|].
  inversion Hw as [|? ? Hwf Hwr]; subst. cbn [map collect_fields] in *. rewrite has_ty_fields_cons in *.
  apply andb_prop in Hty as [Hx Hr]. now rewrite (Hf Hwf x Hx), (IH Hwr xr Hr).
Qed.

Lemma pick_typed ts : Forall TypedView ts -> Forall (fun f => wf_type f = true) ts -> forall i x,
  pick_has_ty (map list_view ts) i x = true ->
  pick_has_ty ts i (match nth_error ts i with Some t => collect_rec t x | None => x end) = true.
Proof.
  unfold pick_has_ty. intros Ht Hw i x. rewrite nth_error_map, !Forall_forall in *.
  destruct (nth_error ts i) as [t|] eqn:E; [|discriminate]. apply nth_error_In in E. now apply Ht; auto.
Qed.

Lemma collected_typed kt m (P : val -> bool) l :
  key_type kt = true -> Forall (fun e => P e = true /\ has_ty kt (entry_key m e) = true) l ->
  forallb P (collect_entries m l) && strictly_sorted m (collect_entries m l) = true.
Proof.
  intros Hk Hl. rewrite Forall_forall in Hl. apply andb_true_intro. split.
  - apply forallb_forall. intros e He. now apply Hl, (collect_incl m).
  - apply (collect_is_sorted kt); [exact Hk|]. apply Forall_forall. intros e He. now apply Hl.
Qed.

Theorem collect_rec_typed t : TypedView t.
Proof.
  induction t using ty_ind'; intros Hwf L Hty; try exact Hty; apply ty_all_inv in Hwf as [Hn Hwa].
  - (* list *)
    destruct L as [| | |l| | | | | |]; try discriminate. cbn [list_view has_ty collect_rec] in *.
    rewrite forallb_forall in *. intros y Hy. apply in_map_iff in Hy as (z & <- & Hz). now apply IHt; auto.
  - (* set *)
    cbn [node_wf] in Hn. destruct (key_view t Hn) as [E C].
    destruct L as [| | |l| | | | | |]; try discriminate. cbn [list_view has_ty collect_rec] in *. rewrite E in Hty.
    rewrite (map_ext _ (fun v => v) C), map_id. apply (collected_typed t); [exact Hn|].
    rewrite forallb_forall in Hty. apply Forall_forall. intros e He. split; now apply Hty.
  - (* map *)
    destruct Hwa as [Hw1 Hw2]. cbn [node_wf] in Hn. destruct (key_view t1 Hn) as [E C].
    destruct L as [| | |l| | | | | |]; try discriminate. cbn [list_view has_ty collect_rec] in *.
    apply (collected_typed t1); [exact Hn|]. rewrite forallb_forall in Hty.
    apply Forall_forall. intros e He. apply in_map_iff in He as (z & <- & Hz). specialize (Hty z Hz).
    destruct z as [| | | | | |es| | |]; try discriminate. destruct es as [|a [|c [|? ?]]]; try discriminate;
      try (rewrite ?andb_false_r in Hty; discriminate).
    apply andb_prop in Hty as [Ha Hc]. apply andb_prop in Hc as [Hc _]. rewrite E in Ha.
    cbn [collect_entry entry_key]. now rewrite C, Ha, (IHt2 Hw2 c Hc).
  - (* option *)
    destruct L; try discriminate; [reflexivity|]. cbn [list_view has_ty collect_rec] in *. now apply IHt.
  - (* container *)
    destruct L; try discriminate. cbn [list_view] in Hty. rewrite has_ty_container in Hty.
    rewrite collect_rec_container, has_ty_container. now apply fields_typed.
  - (* union *)
    destruct L; try discriminate. cbn [list_view] in Hty. rewrite has_ty_union, map_length in Hty.
    rewrite collect_rec_union, has_ty_union. apply andb_prop in Hty as [-> Hp]. now apply pick_typed.
  - (* transparent enum *)
    destruct L; try discriminate. cbn [list_view] in Hty. rewrite has_ty_trans in Hty.
    rewrite collect_rec_trans, has_ty_trans. now apply pick_typed.
  - (* wrap *) cbn [list_view has_ty collect_rec] in *. now apply IHt.
  - (* legacy *)
    destruct L; try discriminate; [reflexivity|]. cbn [list_view has_ty collect_rec] in *. now apply IHt.
Qed.
Print Assumptions collect_rec_typed.

Lemma ty_all_impl (p q : ty -> bool) : (forall t, p t = true -> q t = true) -> forall t, ty_all p t = true -> ty_all q t = true.
Proof.
  intro Hpq. induction t using ty_ind'; intro HA; apply ty_all_inv in HA as [Hp HA]; cbn [ty_all];
    rewrite (Hpq _ Hp), ?ty_all_list; cbn [andb]; auto.
  - (* map *) destruct HA as [H1 H2]. now rewrite (IHt1 H1), (IHt2 H2).
  - (* container *) apply forallb_forall. rewrite Forall_forall in *. auto.
  - (* union *) apply forallb_forall. rewrite Forall_forall in *. auto.
  - (* transparent enum *) apply forallb_forall. rewrite Forall_forall in *. auto.
Qed.
Lemma rt_type_wf t : rt_type t = true -> wf_type t = true.
Proof. apply ty_all_impl. intros u H. unfold node_rt in H. apply andb_prop in H. exact (proj1 H). Qed.

Theorem dec_typed_at_any_depth t bs v :
  canon_type (list_view t) = true -> wf_type t = true -> phys bs -> dec t bs = Ok v -> has_ty t v = true.
Proof.
  intros Hc Hw Hp Hd. rewrite (dec_by_collection t bs) in Hd.
  destruct (dec (list_view t) bs) as [L| |] eqn:E; cbn [omap] in Hd; try discriminate. injection Hd as <-.
  apply collect_rec_typed; [exact Hw|]. exact (proj2 (canon_facts leaf_facts (list_view t) Hc bs L Hp E)).
Qed.

Theorem fixed_point_at_any_depth t bs v :
  canon_type (list_view t) = true -> rt_type t = true -> phys bs -> dec t bs = Ok v ->
  len (enc t v) < 4294967296 -> dec t (enc t v) = Ok v.
Proof.
  intros Hc Hr Hp Hd Hl. apply (rt_facts leaf_facts t Hr v); [|exact Hl].
  exact (dec_typed_at_any_depth t bs v Hc (rt_type_wf t Hr) Hp Hd).
Qed.
Print Assumptions fixed_point_at_any_depth.
