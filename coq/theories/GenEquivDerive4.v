(** * GenEquivDerive4: a generic derived definition, [struct Gen1<T> { a: T, b: u8 }].  The expanded impls are
    generic in [T] (dictionary passing); the theorems are generic in the type expression [t] put for [T]:
    the derived codec of [Gen1<T>] is the model's container codec at [TContainer true [t; TUint 1]], on both
    decoding paths (all-fixed: [split_at]; otherwise: the builder). *)
From SSZ Require Import Base RustSem Offsets Encoder Builder Types Codec CodecUnfold BaseFacts OffsetsFacts AppendFacts MetaFacts
     Generated GenEquiv GenEquivDec GenEquivEnc GenProps GeneratedDerive GenEquivDerive GenEquivDerive2 GenEquivTuple.
From Coq Require Import ZArith ZifyN ZifyBool ZifyNat Lia.
Open Scope N_scope.

Definition T_Gen1 (t : ty) : ty := TContainer true [t; TUint 1].
Definition v_Gen1 (r : GenD.Gen1 val) : val := VCont [GenD.Gen1_a r; VUint (GenD.Gen1_b r)].

Theorem derive_Gen1_metadata t :
  e_fixed_len t + 1 <= usize_max ->
  GenD.Gen1_enc_is_ssz_fixed_len (e_is_fixed t) = Ok (e_is_fixed (T_Gen1 t)) /\
  GenD.Gen1_enc_ssz_fixed_len (e_is_fixed t) (e_fixed_len t) = Ok (e_fixed_len (T_Gen1 t)) /\
  GenD.Gen1_dec_is_ssz_fixed_len (d_is_fixed t) = Ok (d_is_fixed (T_Gen1 t)) /\
  GenD.Gen1_dec_ssz_fixed_len (d_is_fixed t) (d_fixed_len t) = Ok (d_fixed_len (T_Gen1 t)).
Proof.
  intro H. assert (Hd : d_fixed_len t + 1 <= usize_max) by (rewrite <- fixed_len_agree; exact H).
  unfold T_Gen1. rewrite e_is_fixed_container, d_is_fixed_container, e_fixed_len_container, d_fixed_len_container.
  cbn [forallb map sumN e_is_fixed d_is_fixed e_fixed_len d_fixed_len]. change (N.of_nat 1) with 1.
  unfold GenD.Gen1_enc_ssz_fixed_len, GenD.Gen1_dec_ssz_fixed_len, GenD.Gen1_enc_is_ssz_fixed_len, GenD.Gen1_dec_is_ssz_fixed_len.
  leaf_meta. change (8 / 8) with 1. rewrite gen_BYTES_PER_LENGTH_OFFSET. repeat split.
  - destruct (e_is_fixed t); reflexivity.
  - destruct (e_is_fixed t); cbn [andb]; [|reflexivity].
    rewrite (checked_add_ok 0) by lia. cbn [bind]. rewrite checked_add_ok by lia. reflexivity.
  - destruct (d_is_fixed t); reflexivity.
  - destruct (d_is_fixed t); cbn [andb]; [|reflexivity].
    rewrite (checked_add_ok 0) by lia. cbn [bind]. rewrite checked_add_ok by lia. reflexivity.
Qed.

Theorem derive_Gen1_ssz_append t r buf :
  e_fixed_len t + 1 + len (enc t (GenD.Gen1_a r)) <= usize_max ->
  GenD.Gen1_ssz_append (e_is_fixed t) (e_fixed_len t) (app_of t) r buf = Ok (append (T_Gen1 t) (v_Gen1 r) buf).
Proof.
  intro H. unfold GenD.Gen1_ssz_append. leaf_meta.
  apply (container_append true [t; TUint 1] [GenD.Gen1_a r; VUint (GenD.Gen1_b r)]
           [put (e_is_fixed t) (app_of t) (GenD.Gen1_a r); put true Gen.u8_ssz_append (GenD.Gen1_b r)] buf).
  - repeat constructor; apply put_as; reflexivity.
  - cbn [map sumN combine removelast fst snd]. unfold var_len. cbn [fst snd].
    change (e_fixed_len (TUint 1)) with 1. destruct (e_is_fixed t); lia.
Qed.

Theorem derive_Gen1_ssz_bytes_len t r :
  e_fixed_len t + 1 <= usize_max -> field_len t (GenD.Gen1_a r) + 1 <= usize_max ->
  GenD.Gen1_ssz_bytes_len (e_is_fixed t) (e_fixed_len t) (len_of t) r = Ok (bytes_len (T_Gen1 t) (v_Gen1 r)).
Proof.
  intros HF H. unfold GenD.Gen1_ssz_bytes_len.
  destruct (derive_Gen1_metadata t HF) as (M1 & M2 & _). rewrite M1. cbn [bind].
  destruct (e_is_fixed (T_Gen1 t)) eqn:EF.
  - rewrite M2. unfold T_Gen1, v_Gen1 in *. rewrite bytes_len_container, e_fixed_len_container.
    rewrite e_is_fixed_container in EF. rewrite EF. reflexivity.
  - leaf_meta. apply (container_bytes_len true [t; TUint 1] [GenD.Gen1_a r; VUint (GenD.Gen1_b r)] EF).
    cbn [map sumN combine fst snd]. change (field_len (TUint 1) _) with 1. lia.
Qed.


Theorem derive_Gen1_from_ssz_bytes t bs :
  d_fixed_len t + 1 <= usize_max ->
  omap v_Gen1 (GenD.Gen1_from_ssz_bytes (d_is_fixed t) (d_fixed_len t) (dec t) bs) = dec (T_Gen1 t) bs.
Proof.
  intro HF. unfold GenD.Gen1_from_ssz_bytes.
  destruct (derive_Gen1_metadata t ltac:(rewrite fixed_len_agree; exact HF)) as (_ & _ & M3 & M4). rewrite M3. cbn [bind].
  destruct (d_is_fixed (T_Gen1 t)) eqn:EF.
  - (* all-fixed: the [split_at] path *)
    rewrite M4. leaf_meta. unfold T_Gen1 in *. rewrite d_fixed_len_container. rewrite d_is_fixed_container in EF. rewrite EF.
    apply (split_path [t; TUint 1]); [exact EF|].
    apply (split_step (fun v => v) t); [intro; apply omap_id|]. intros a rest.
    apply (split_step VUint (TUint 1)); [exact gen_u8_from_ssz_bytes_eq|]. intros b rest1.
    reflexivity.
  - (* otherwise: the builder *)
    leaf_meta. apply (builder_path true [t; TUint 1]); [exact EF|]. intro items.
    apply (decode_next_step (fun v => v) t); [intro; apply omap_id|]. intros a its.
    apply (decode_next_step VUint (TUint 1)); [exact gen_u8_from_ssz_bytes_eq|]. intros b its1.
    reflexivity.
Qed.

Print Assumptions derive_Gen1_metadata.
Print Assumptions derive_Gen1_ssz_append.
Print Assumptions derive_Gen1_ssz_bytes_len.
Print Assumptions derive_Gen1_from_ssz_bytes.
