(** * The implementation model writes the SSZ wire format of [Spec.v] (C03). *)
From SSZ Require Import Base BaseFacts Offsets OffsetsFacts Encoder EncoderFacts Layout LayoutFacts
     Bitfield Types Codec Spec CodecUnfold MetaFacts AppendFacts LeafIface SizeFacts.
From Coq Require Import ZArith ZifyN ZifyNat ZifyBool.
Open Scope N_scope.

(** ** integers: repeated division = positional formula *)
Lemma le_bytes_spec_uint k n : le_bytes k n = spec_uint k n.
Proof.
  unfold spec_uint. revert n. induction k as [|k IH]; intros n; [reflexivity|].
  cbn [le_bytes seq map]. f_equal.
  - cbn [N.of_nat N.pow]. now rewrite N.div_1_r.
  - rewrite IH, <- seq_shift, map_map. apply map_ext. intros i.
    rewrite Nat2N.inj_succ, N.pow_succ_r', N.div_div by lia. reflexivity.
Qed.


Lemma encode_length_spec n : encode_length n = spec_uint 4 n.
Proof.
  unfold encode_length. change 4294967296 with (256 ^ N.of_nat 4).
  rewrite le_bytes_mod. apply le_bytes_spec_uint.
Qed.

(** ** series: index-based spec formulation = recursive layout *)
Definition to_elem (p : part) : bool * bytes := (negb (fst p), snd p).

Definition vls (elems : list (bool * bytes)) : list N :=
  map len (map (fun e : bool * bytes => if fst e then snd e else []) elems).
Definition fps (elems : list (bool * bytes)) : list (option bytes) :=
  map (fun e : bool * bytes => if fst e then None else Some (snd e)) elems.

Lemma vls_cons f b l :
  vls (map to_elem ((f, b) :: l)) = (if f then 0 else len b) :: vls (map to_elem l).
Proof. destruct f; reflexivity. Qed.

Lemma series_fixed_rec parts : forall off k (offs : list bytes),
  (forall j, (j < length parts)%nat ->
     nth (k + j) offs [] = spec_uint 4 (off + sumN (firstn j (vls (map to_elem parts))))) ->
  concat (map (fun ip : nat * option bytes =>
                 match snd ip with Some s => s | None => nth (fst ip) offs [] end)
              (combine (seq k (length parts)) (fps (map to_elem parts))))
  = assemble_fixed off parts.
Proof.
  induction parts as [|[f b] r IH]; intros off k offs H; [reflexivity|].
  assert (T : forall j, (j < length r)%nat ->
     nth (S k + j) offs [] = spec_uint 4 (off + (if f then 0 else len b) + sumN (firstn j (vls (map to_elem r))))).
  { intros j Hj. rewrite Nat.add_succ_comm, H, vls_cons by (cbn [length]; lia).
    cbn [firstn sumN]. now rewrite N.add_assoc. }
  specialize (IH _ _ _ T). specialize (H 0%nat ltac:(cbn [length]; lia)).
  rewrite Nat.add_0_r, N.add_0_r in H.
  cbn [length seq map fps combine concat fst snd to_elem assemble_fixed].
  destruct f; cbn [negb]; f_equal.
  - now rewrite N.add_0_r in IH.
  - now rewrite H, encode_length_spec.
  - exact IH.
Qed.

Lemma vls_var_concat parts :
  concat (map (fun e : bool * bytes => if fst e then snd e else []) (map to_elem parts)) = var_concat parts.
Proof.
  unfold var_concat. induction parts as [|[[|] b] r IH]; cbn [map concat fst snd to_elem negb]; [reflexivity| |];
    now rewrite IH.
Qed.

Lemma fixed_lengths_fixed_size parts :
  sumN (map (fun p : option bytes => match p with Some s => len s | None => BYTES_PER_LENGTH_OFFSET end)
            (fps (map to_elem parts))) = fixed_size parts.
Proof.
  unfold fixed_size, fps. induction parts as [|[[|] b] r IH]; cbn [map sumN fst snd to_elem negb]; [reflexivity| |];
    now rewrite IH.
Qed.

Lemma nth_map_seq {A} (g : nat -> A) n : forall a j d,
  (j < n)%nat -> nth j (map g (seq a n)) d = g (a + j)%nat.
Proof.
  induction n as [|n IH]; intros a j d H; [lia|].
  destruct j; cbn [seq map nth].
  - f_equal; lia.
  - rewrite IH by lia. f_equal; lia.
Qed.

Theorem assemble_spec_series parts :
  assemble (fixed_size parts) parts = spec_series (map to_elem parts).
Proof.
  unfold spec_series, assemble. cbv zeta. rewrite vls_var_concat. f_equal.
  rewrite map_length. symmetry.
  apply (series_fixed_rec parts (fixed_size parts) 0).
  intros j Hj. cbn [Nat.add]. rewrite nth_map_seq by exact Hj. cbn [Nat.add].
  fold (fps (map to_elem parts)). rewrite fixed_lengths_fixed_size. reflexivity.
Qed.

(** A homogeneous sequence is a series whose elements are all fixed-size or all variable-size. *)
Lemma seq_enc_assemble f encs :
  let parts := map (pair f) encs in seq_enc f encs = assemble (fixed_size parts) parts.
Proof.
  unfold seq_enc. destruct f; cbv zeta.
  - generalize (fixed_size (map (pair true) encs)) as nf. intros nf. unfold assemble, var_concat.
    induction encs as [|e r IH]; cbn [map assemble_fixed concat fst snd app]; [reflexivity|].
    now rewrite <- app_assoc, <- IH.
  - f_equal. unfold fixed_size, BYTES_PER_LENGTH_OFFSET.
    induction encs as [|e r IH]; cbn [map sumN length fst snd]; lia.
Qed.

Lemma seq_enc_spec f encs :
  seq_enc f encs = spec_series (map (fun e => (negb f, e)) encs).
Proof. now rewrite seq_enc_assemble, assemble_spec_series, map_map. Qed.

Definition spec_ok (t : ty) : Prop := forall v, has_ty t v = true -> enc t v = spec_enc t v.

Lemma spec_seq t vs :
  Forall (fun v => enc t v = spec_enc t v) vs ->
  seq_enc (e_is_fixed t) (map (enc t) vs) = spec_series (map (fun x => (is_variable t, spec_enc t x)) vs).
Proof.
  intros H. rewrite seq_enc_spec, map_map, is_variable_spec. f_equal.
  apply map_ext_Forall. revert H. apply Forall_impl. now intros x ->.
Qed.

Lemma fixed_size_cont_parts (L : LeafFacts) fs : forall vs,
  has_ty_fields fs vs = true -> sumN (map e_fixed_len fs) = fixed_size (cont_parts fs vs).
Proof.
  unfold fixed_size, cont_parts. intros vs H%has_ty_fields_Forall2.
  induction H as [|f x fs vs Hx _ IH]; [reflexivity|]. cbn [combine map sumN fst snd]. rewrite <- IH. f_equal.
  destruct (e_is_fixed f) eqn:Ef; [symmetry; now apply fixed_enc_len|now apply variable_fixed_len].
Qed.

Lemma to_elem_cont_parts fs vs :
  Forall2 (fun f x => enc f x = spec_enc f x) fs vs -> map to_elem (cont_parts fs vs) = spec_elems fs vs.
Proof.
  unfold cont_parts, spec_elems, to_elem. induction 1 as [|f x fs vs Hx _ IH]; [reflexivity|].
  cbn [combine map fst snd]. now rewrite IH, Hx, is_variable_spec.
Qed.

Lemma spec_enc_map k v es :
  has_ty (TMap k v) (VList es) = true ->
  spec_enc (TMap k v) (VList es) = spec_enc (TList (TContainer false [k; v])) (VList es).
Proof.
  intros H%has_ty_map_entries. remember (TContainer false [k; v]) as T eqn:ET. cbn [spec_enc]. subst T.
  rewrite is_variable_container. cbn [existsb]. rewrite orb_false_r. f_equal.
  apply map_ext_Forall. revert H. apply Forall_impl. now intros e (a & c & -> & _).
Qed.

Theorem spec_facts (L : LeafFacts) t : spec_ok t.
Proof.
  unfold spec_ok. revert t. apply (typed_ind (fun t v => enc t v = spec_enc t v)); try reflexivity.
  - intros k n _. apply le_bytes_spec_uint.
  - intros [|]; reflexivity.
  - intros n _ _. apply le_bytes_spec_uint.
  - (* TList *) intros t vs _ H. rewrite enc_list. now apply spec_seq.
  - (* TSet *) intros t vs _ _ H. rewrite enc_set. now apply spec_seq.
  - (* TMap *) intros k v es Hv H. now rewrite enc_map_typed, spec_enc_map.
  - (* TOption *) intros t x _ H. rewrite enc_option_some. cbn [spec_enc]. now rewrite H.
  - (* TContainer *) intros d fs vs Hv H.
    rewrite enc_container, spec_enc_container, (fixed_size_cont_parts L fs vs Hv), <- (to_elem_cont_parts fs vs H).
    apply assemble_spec_series.
  - (* TUnion *) intros ts i t x _ E _ H. now rewrite enc_union, spec_enc_union, E, H.
  - (* TTag *) intros n i Hi Hn. unfold enc. cbn [append spec_enc app]. unfold spec_uint. cbn [seq map N.of_nat N.pow].
    rewrite N.div_1_r, N.mod_small; [reflexivity|lia].
  - (* TTransEnum *) intros ts i t x E _ H. now rewrite enc_trans, spec_enc_trans, E.
  - (* TWrap *) intros t x _ H. exact H.
  - intros n bits Hn. now apply (lf_bv_spec L).
  - intros n bits Hn. now apply (lf_bl_spec L).
  - intros bits H0 H8. now apply (lf_bd_spec L).
  - (* TLegacyOpt *) intros t x _ H. rewrite enc_legacy_some. cbn [spec_enc]. now rewrite encode_length_spec, H.
Qed.
