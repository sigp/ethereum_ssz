(** * Corollaries of [BuilderFacts.split_sound] / [split_complete] / [builder_build_split]: the
    spelled-out "read all offsets, check, cut" description [SplitSpec.split] accepts exactly the
    tiled inputs, returns exactly the tiling ([Layout.Tiles]), and agrees with
    [Builder.builder_build]. *)
From SSZ Require Import Base BaseFacts Offsets OffsetsFacts Builder Layout BuilderFacts SplitSpec.
Open Scope N_scope.

Theorem split_tiles regs bs slices :
  wfb bs -> (split regs bs = Some slices <-> Tiles regs bs slices).
Proof. intros Hw. split; [apply split_sound, Hw|apply split_complete]. Qed.

Corollary split_builder regs bs slices :
  wfb bs -> len bs <= usize_max ->
  (split regs bs = Some slices <-> builder_build regs bs = Ok slices).
Proof.
  intros _ Hm. rewrite builder_build_split by exact Hm. destruct (split regs bs); split; congruence.
Qed.

Lemma layout_ok_split regs bs : layout_ok regs bs = true <-> exists slices, split regs bs = Some slices.
Proof.
  unfold split. destruct (layout_ok regs bs); split.
  - intros _. eexists. reflexivity.
  - reflexivity.
  - discriminate.
  - intros [s H]. discriminate.
Qed.

Corollary layout_ok_tiles regs bs :
  wfb bs -> (layout_ok regs bs = true <-> exists slices, Tiles regs bs slices).
Proof.
  intros Hw. rewrite layout_ok_split. split; intros [s H]; exists s; apply (split_tiles regs bs s Hw); exact H.
Qed.

Corollary layout_ok_accepts regs bs :
  wfb bs -> len bs <= usize_max ->
  (layout_ok regs bs = true <-> exists slices, builder_build regs bs = Ok slices).
Proof.
  intros Hw Hm. rewrite layout_ok_split.
  split; intros [s H]; exists s; apply (split_builder regs bs s Hw Hm); exact H.
Qed.

Corollary tiles_unique regs bs s1 s2 :
  wfb bs -> Tiles regs bs s1 -> Tiles regs bs s2 -> s1 = s2.
Proof.
  intros _ H1 H2. apply split_complete in H1, H2. congruence.
Qed.

Print Assumptions split_tiles.
Print Assumptions split_builder.
Print Assumptions layout_ok_accepts.
