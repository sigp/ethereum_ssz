(** * SplitSpec: "fixed parts, offset words and variable parts tile the input", written the way
    the property text reads and independent of the builder state machine (C09/C10).

    From the registration sequence [regs] ([(is_fixed, ssz_fixed_len)] per item) alone compute
    where every item sits in the fixed portion; read ALL offset words; check the conditions of
    the property text; then cut.  Definitions only (this file is extracted and evaluated by the
    correspondence harness); the equivalence with [Layout.Tiles] and with the builder model is
    in [BuilderFacts.v] ([split_sound], [split_complete], [builder_build_split]) and [SplitFacts.v]. *)
From SSZ Require Export Layout.

(** Width of an item in the fixed portion: its registered length if it is fixed-size, one
    4-byte offset word if it is variable-size. *)
Definition reg_width (r : bool * N) : N :=
  if fst r then snd r else BYTES_PER_LENGTH_OFFSET.

(** [(is_fixed, start, width)] of every registered item in the fixed portion, the first item
    starting at [cursor]. *)
Fixpoint positions (regs : list (bool * N)) (cursor : N) : list (bool * N * N) :=
  match regs with
  | [] => []
  | r :: rest => (fst r, cursor, reg_width r) :: positions rest (cursor + reg_width r)
  end.

(** Size of the fixed portion. *)
Definition fixed_end (regs : list (bool * N)) : N := sumN (map reg_width regs).

Definition pos_is_fixed (p : bool * N * N) : bool := fst (fst p).
Definition pos_start (p : bool * N * N) : N := snd (fst p).
Definition pos_width (p : bool * N * N) : N := snd p.

(** The offset words, as numbers, in registration order. *)
Definition read_offsets (regs : list (bool * N)) (bs : bytes) : list N :=
  map (fun p => le_val (take 4 (drop (pos_start p) bs)))
      (filter (fun p => negb (pos_is_fixed p)) (positions regs 0)).

Fixpoint nondecreasing (l : list N) : bool :=
  match l with
  | [] => true
  | a :: r => match r with [] => true | b :: _ => (a <=? b) && nondecreasing r end
  end.

(** The conditions of the property text: the fixed portion fits; without variable items there
    are no excess bytes; with variable items the first offset is exactly the size of the fixed
    portion, offsets never decrease, and no offset points past the end of the input. *)
Definition layout_ok (regs : list (bool * N)) (bs : bytes) : bool :=
  (fixed_end regs <=? len bs) &&
  match read_offsets regs bs with
  | [] => fixed_end regs =? len bs
  | (o :: _) as offs =>    (* parentheses needed: [o :: _ as offs] would bind the tail *)
      (o =? fixed_end regs) && nondecreasing offs && forallb (fun x => x <=? len bs) offs
  end.

(** The bytes of the variable items: the i-th from its offset to the next offset, the last one
    to the end of the input. *)
Fixpoint var_slices (offs : list N) (bs : bytes) : list bytes :=
  match offs with
  | [] => []
  | o :: rest => take (hd (len bs) rest - o) (drop o bs) :: var_slices rest bs
  end.

(** Each item's own bytes, in registration order: fixed items in place, variable items from
    [vars] in order.  (The [[]] branch is never reached: there is one entry of [vars] per
    variable item.) *)
Fixpoint place (pos : list (bool * N * N)) (vars : list bytes) (bs : bytes) : list bytes :=
  match pos with
  | [] => []
  | p :: rest =>
      if pos_is_fixed p then take (pos_width p) (drop (pos_start p) bs) :: place rest vars bs
      else match vars with
           | v :: vs => v :: place rest vs bs
           | [] => [] :: place rest [] bs
           end
  end.

Definition split (regs : list (bool * N)) (bs : bytes) : option (list bytes) :=
  if layout_ok regs bs
  then Some (place (positions regs 0) (var_slices (read_offsets regs bs) bs) bs)
  else None.
