(** * GenEquiv: the definitions that [rs2v] derives from the Rust text of /repo ([Generated.v]: offsets, selectors,
    [SszDecoderBuilder], [SszEncoder], the first bitfield functions) are equal to the hand-written model definitions,
    for every input -- as far as the translator's rules ([RustSem.v], rs2v/src/main.rs) are the meaning of the Rust text. *)
From SSZ Require Import Base RustSem Offsets Encoder Builder Bitfield BaseFacts Generated.
From Coq Require Import ZArith ZifyN ZifyBool ZifyNat Lia.
Open Scope N_scope.

Lemma llen_len (bs : bytes) : llen bs = len bs. Proof. reflexivity. Qed.

Lemma gen_BYTES_PER_LENGTH_OFFSET : Gen.BYTES_PER_LENGTH_OFFSET = BYTES_PER_LENGTH_OFFSET. Proof. reflexivity. Qed.
Lemma gen_BYTES_PER_UNION_SELECTOR : Gen.BYTES_PER_UNION_SELECTOR = BYTES_PER_UNION_SELECTOR. Proof. reflexivity. Qed.
Lemma gen_MAX_UNION_SELECTOR : Gen.MAX_UNION_SELECTOR = MAX_UNION_SELECTOR. Proof. reflexivity. Qed.

Definition off_abs (o : Gen.Offset) : boffset :=
  {| o_position := N.to_nat (Gen.Offset_position o); o_offset := Gen.Offset_offset o |}.
Definition st_abs (s : Gen.SszDecoderBuilder) : bstate :=
  {| b_items := Gen.SszDecoderBuilder_items s;
     b_offsets := map off_abs (Gen.SszDecoderBuilder_offsets s);
     b_index := Gen.SszDecoderBuilder_items_index s |}.
Definition enc_abs (s : Gen.SszEncoder) : enc_state :=
  {| e_offset := Gen.SszEncoder_offset s; e_buf := Gen.SszEncoder_buf s; e_var := Gen.SszEncoder_variable_bytes s |}.
Definition bf_abs (b : Gen.Bitfield) : bf := {| bf_bytes := Gen.Bitfield_bytes b; bf_len := Gen.Bitfield_len b |}.

(** Reduces the field projections, field updates and abstraction functions of these records where they
    meet a constructor; nothing else is unfolded. *)
Ltac gen_proj :=
  cbn [Gen.SszDecoderBuilder_bytes Gen.SszDecoderBuilder_items Gen.SszDecoderBuilder_offsets
       Gen.SszDecoderBuilder_items_index Gen.set_SszDecoderBuilder_items Gen.set_SszDecoderBuilder_offsets
       Gen.set_SszDecoderBuilder_items_index Gen.Offset_position Gen.Offset_offset
       st_abs off_abs b_items b_offsets b_index o_position o_offset
       Gen.Bitfield_bytes Gen.Bitfield_len Gen.set_Bitfield_bytes bf_abs bf_bytes bf_len].

(** [sanitize_offset]: the model is written branch for branch like the source *)
Theorem gen_sanitize_offset_eq offset prev num_bytes num_fixed :
  Gen.sanitize_offset offset prev num_bytes num_fixed = sanitize_offset offset prev num_bytes num_fixed.
Proof. reflexivity. Qed.

Theorem gen_decode_offset_eq bs : Gen.decode_offset bs = decode_offset bs.
Proof.
  unfold Gen.decode_offset, decode_offset. change (llen bs =? Gen.BYTES_PER_LENGTH_OFFSET) with (len bs =? 4).
  destruct (len bs =? 4); reflexivity.
Qed.

Theorem gen_read_offset_eq bs : Gen.read_offset bs = read_offset bs.
Proof.
  unfold Gen.read_offset, read_offset. change Gen.BYTES_PER_LENGTH_OFFSET with 4.
  destruct (get_range bs 0 4); [apply gen_decode_offset_eq | reflexivity].
Qed.

Theorem gen_union_selector_new_eq s : Gen.union_selector_new s = union_selector_new s.
Proof.
  unfold Gen.union_selector_new, union_selector_new. change Gen.MAX_UNION_SELECTOR with MAX_UNION_SELECTOR.
  cbn [opt_filter]. destruct (s <=? MAX_UNION_SELECTOR); reflexivity.
Qed.

Theorem gen_split_union_bytes_eq bs : Gen.split_union_bytes bs = split_union_bytes bs.
Proof.
  unfold Gen.split_union_bytes, split_union_bytes.
  destruct bs as [|s r]; cbn [hd_error ok_or bind]; [reflexivity|].
  rewrite gen_union_selector_new_eq. reflexivity.
Qed.

Lemma firstn_le_bytes k j n : firstn k (le_bytes (k + j) n) = le_bytes k n.
Proof.
  revert n. induction k as [|k IH]; intro n; [reflexivity|].
  cbn [Nat.add le_bytes firstn]. f_equal. apply IH.
Qed.

Theorem gen_encode_length_eq n : Gen.encode_length n = Ok (encode_length n).
Proof.
  unfold Gen.encode_length, encode_length.
  change (index_range (le_bytes 8 n) 0 Gen.BYTES_PER_LENGTH_OFFSET) with (Ok (firstn 4 (le_bytes (4 + 4) n))).
  rewrite firstn_le_bytes. cbn [bind]. unfold llen. rewrite le_bytes_length.
  change 4294967296 with (256 ^ N.of_nat 4). rewrite le_bytes_mod. reflexivity.
Qed.

Theorem gen_encode_four_byte_union_selector_eq n :
  Gen.encode_four_byte_union_selector n = Ok (encode_length n).
Proof. apply gen_encode_length_eq. Qed.
Theorem gen_read_four_byte_union_selector_eq bs :
  Gen.read_four_byte_union_selector bs = read_offset bs.
Proof. apply gen_read_offset_eq. Qed.

Lemma div_ceil_add n d : 0 < d -> div_ceil n d = (n + (d - 1)) / d.
Proof.
  intro Hd. unfold div_ceil.
  pose proof (N.div_mod n d) as H. pose proof (N.mod_lt n d) as L.
  generalize dependent (n mod d). generalize (n / d). intros q r H L.
  destruct (N.eqb_spec r 0) as [->|E]; [apply (N.div_unique _ d q (d - 1)) | apply (N.div_unique _ d (q + 1) (r - 1))]; lia.
Qed.

Theorem gen_bytes_for_bit_len_eq n : Gen.bytes_for_bit_len n = Ok (bytes_for_bit_len n).
Proof. unfold Gen.bytes_for_bit_len. rewrite div_ceil_add; reflexivity. Qed.

Lemma last_offset_abs os :
  option_map (fun o => Gen.Offset_offset o) (last_error os) = last_offset (map off_abs os).
Proof.
  unfold last_error, last_offset. rewrite <- map_rev. destruct (rev os); reflexivity.
Qed.

(** [register_type_parameterized]: same outcome, same new state, the input bytes untouched. *)
Theorem gen_builder_register_eq s f l :
  omap (fun s' => (Gen.SszDecoderBuilder_bytes s', st_abs s')) (Gen.builder_register s f l)
  = omap (fun st => (Gen.SszDecoderBuilder_bytes s, st)) (register (Gen.SszDecoderBuilder_bytes s) (st_abs s) f l).
Proof.
  unfold Gen.builder_register, register. destruct s as [bs items offs idx], f; gen_proj.
  - destruct (checked_add idx l) as [idx'|]; cbn [ok_or bind omap]; [|reflexivity]. gen_proj.
    destruct (get_range bs idx idx'); reflexivity.
  - destruct (index_from bs idx) as [rest| |]; cbn [bind omap]; try reflexivity.
    rewrite gen_read_offset_eq, last_offset_abs. destruct (read_offset rest) as [off| |]; cbn [bind omap]; try reflexivity.
    change (Gen.sanitize_offset off) with (sanitize_offset off). change (llen bs) with (len bs).
    destruct (sanitize_offset off _ (len bs) None) as [off'| |]; cbn [bind omap]; try reflexivity. gen_proj.
    change Gen.BYTES_PER_LENGTH_OFFSET with BYTES_PER_LENGTH_OFFSET.
    destruct (usize_add idx BYTES_PER_LENGTH_OFFSET) as [idx'| |]; cbn [bind omap]; try reflexivity.
    unfold st_abs. gen_proj. rewrite map_app. cbn [map]. unfold off_abs at 2. gen_proj. unfold llen. rewrite Nnat.Nat2N.id. reflexivity.
Qed.

Lemma set_at_set_nth {A} (l : list A) p x : set_at_nat l p x = set_nth l p x.
Proof.
  (* the two fixpoints have the same body: convertible *)
  reflexivity.
Qed.

Lemma fold_windows_fill_pairs bs offs idx os items :
  fold_m (fun self pair =>
            do a <- index_at pair 0;
            do b <- index_at pair 1;
            do t <- index_range (Gen.SszDecoderBuilder_bytes self) (Gen.Offset_offset a) (Gen.Offset_offset b);
            do upd <- set_at (Gen.SszDecoderBuilder_items self) (Gen.Offset_position a) t;
            Ok (Gen.set_SszDecoderBuilder_items self upd))
         (windows2 os)
         {| Gen.SszDecoderBuilder_bytes := bs; Gen.SszDecoderBuilder_items := items;
            Gen.SszDecoderBuilder_offsets := offs; Gen.SszDecoderBuilder_items_index := idx |}
  = omap (fun it => {| Gen.SszDecoderBuilder_bytes := bs; Gen.SszDecoderBuilder_items := it;
                       Gen.SszDecoderBuilder_offsets := offs; Gen.SszDecoderBuilder_items_index := idx |})
         (fill_pairs bs (map off_abs os) items).
Proof.
  revert items. induction os as [|a [|b r] IH]; intro items; [reflexivity..|].
  change (windows2 (a :: b :: r)) with ([a; b] :: windows2 (b :: r)).
  cbn [fold_m map fill_pairs]. change (index_at [a; b] 0) with (Ok a). change (index_at [a; b] 1) with (Ok b).
  cbn [bind]. gen_proj.
  destruct (index_range bs (Gen.Offset_offset a) (Gen.Offset_offset b)) as [t| |]; cbn [bind omap]; try reflexivity.
  change (set_at items (Gen.Offset_position a) t) with (set_nth items (N.to_nat (Gen.Offset_position a)) t).
  destruct (set_nth items _ t) as [items'| |]; cbn [bind omap]; try reflexivity.
  exact (IH items').
Qed.

Theorem gen_builder_finalize_eq s :
  omap Gen.SszDecoderBuilder_items (Gen.builder_finalize s)
  = finalize (Gen.SszDecoderBuilder_bytes s) (st_abs s).
Proof.
  unfold Gen.builder_finalize, finalize. destruct s as [bs items offs idx]. gen_proj.
  destruct offs as [|first rest]; cbn [hd_error option_map map]; gen_proj.
  - change (llen bs) with (len bs). destruct (idx =? len bs); reflexivity.
  - destruct (N.compare_spec (Gen.Offset_offset first) idx) as [E|L|G].
    + subst idx. rewrite N.ltb_irrefl.
      rewrite (fold_windows_fill_pairs bs (first :: rest) _ (first :: rest) items).
      change (off_abs first :: map off_abs rest) with (map off_abs (first :: rest)).
      destruct (fill_pairs bs _ items) as [items'| |]; cbn [omap bind]; try reflexivity. gen_proj.
      unfold last_error. rewrite <- map_rev. destruct (rev (first :: rest)) as [|lst ?]; cbn [map omap]; [reflexivity|].
      gen_proj. destruct (index_from bs (Gen.Offset_offset lst)) as [t| |]; cbn [bind omap]; try reflexivity.
      change (set_at items' (Gen.Offset_position lst) t) with (set_nth items' (N.to_nat (Gen.Offset_position lst)) t).
      destruct (set_nth items' _ t); reflexivity.
    + apply N.ltb_lt in L. rewrite L. reflexivity.
    + rewrite (proj2 (N.ltb_ge _ _) (N.lt_le_incl _ _ G)), (proj2 (N.ltb_lt _ _) G). reflexivity.
Qed.

(** [append_parameterized]: equal to the model whenever the offset written fits a [usize]
    (the model states encoder facts for encodings shorter than 2^32 bytes) and the item's
    [ssz_append] closure returns ([Fn(&mut Vec<u8>)] closures are fallible in the translation: an
    item encoder that panics is a panic of the whole call). *)
Theorem gen_encoder_append_eq s f (app : bytes -> bytes) :
  Gen.SszEncoder_offset s + len (Gen.SszEncoder_variable_bytes s) <= usize_max ->
  omap enc_abs (Gen.encoder_append s f (fun b => Ok (app b))) = Ok (enc_append (enc_abs s) f app).
Proof.
  intro H. unfold Gen.encoder_append, enc_append. rewrite llen_len, usize_add_ok by exact H.
  destruct f; [reflexivity|]. cbn [bind]. rewrite gen_encode_length_eq. reflexivity.
Qed.

(** An item encoder that panics makes the call panic in either branch (so does an offset that does not
    fit, before the item encoder is reached). *)
Lemma encoder_append_item_panics s f (app : bytes -> outcome bytes) :
  (forall b, app b = Panic) -> Gen.encoder_append s f app = Panic.
Proof.
  intro H. unfold Gen.encoder_append. destruct f; [rewrite H; reflexivity|].
  unfold usize_add. destruct (_ <=? usize_max); [cbn [bind] | reflexivity].
  rewrite gen_encode_length_eq. cbn [bind]. rewrite H. reflexivity.
Qed.

Theorem gen_encoder_append_item_fails s f (app : bytes -> outcome bytes) :
  (forall b, app b = Panic) -> Gen.encoder_append s f app = Panic \/ (f = false /\ Gen.SszEncoder_offset s + len (Gen.SszEncoder_variable_bytes s) > usize_max).
Proof. intro H. left. exact (encoder_append_item_panics s f app H). Qed.

(** [finalize]: the buffer is [buf ++ variable_bytes]. *)
Theorem gen_encoder_finalize_eq s :
  omap Gen.SszEncoder_buf (Gen.encoder_finalize s) = Ok (enc_finalize (enc_abs s)).
Proof. reflexivity. Qed.

Lemma usize_mul_ok a b : a * b <= usize_max -> usize_mul a b = Ok (a * b).
Proof. intro H. unfold usize_mul. rewrite (proj2 (N.leb_le _ _) H). reflexivity. Qed.
Lemma usize_sub_ok a b : b <= a -> usize_sub a b = Ok (a - b).
Proof. intro H. unfold usize_sub. rewrite (proj2 (N.leb_le _ _) H). reflexivity. Qed.

Lemma fold_usize_add l : forall acc, acc + sumN l <= usize_max -> fold_m usize_add l acc = Ok (acc + sumN l).
Proof.
  induction l as [|x r IH]; intros acc H; cbn [fold_m sumN] in *; [rewrite N.add_0_r; reflexivity|].
  rewrite N.add_assoc in *. rewrite usize_add_ok by (eapply N.le_trans; [apply N.le_add_r | exact H]). apply IH, H.
Qed.

Theorem gen_bitfield_len_eq b : Gen.bitfield_len b = Ok (bf_len (bf_abs b)).
Proof. reflexivity. Qed.
Theorem gen_bitfield_is_empty_eq b : Gen.bitfield_is_empty b = Ok (bf_len (bf_abs b) =? 0).
Proof. reflexivity. Qed.

Lemma get_at_succ {A} (x : A) r i : get_at (x :: r) (N.succ i) = get_at r i.
Proof. unfold get_at. rewrite Nnat.N2Nat.inj_succ. reflexivity. Qed.

Lemma get_at_nthN (l : bytes) i : get_at l i = nthN l i.
Proof.
  revert i. induction l as [|x r IH]; intro i; [unfold get_at; destruct (N.to_nat i); reflexivity|].
  cbn [nthN]. destruct (N.eqb_spec i 0) as [->|E]; [reflexivity|].
  rewrite <- IH. replace i with (N.succ (i - 1)) at 1 by lia. apply get_at_succ.
Qed.

Theorem gen_bitfield_get_eq b i : Gen.bitfield_get b i = bf_get (bf_abs b) i.
Proof.
  unfold Gen.bitfield_get, bf_get. rewrite get_at_nthN. gen_proj.
  destruct (i <? Gen.Bitfield_len b), (nthN (Gen.Bitfield_bytes b) (i / 8)); reflexivity.
Qed.

(** [upd_at] and the model's [updN] are the same fixpoint. *)
Theorem gen_bitfield_set_eq b i v : omap bf_abs (Gen.bitfield_set b i v) = bf_set (bf_abs b) i v.
Proof.
  unfold Gen.bitfield_set, bf_set. rewrite get_at_nthN. gen_proj.
  destruct (i <? Gen.Bitfield_len b), (nthN (Gen.Bitfield_bytes b) (i / 8)), v; reflexivity.
Qed.

Theorem gen_bitfield_from_raw_bytes_eq bs n :
  omap bf_abs (Gen.bitfield_from_raw_bytes bs n) = from_raw_bytes bs n.
Proof.
  unfold Gen.bitfield_from_raw_bytes, from_raw_bytes. destruct (n =? 0).
  - destruct bs as [|b0 [|b1 r]]; [reflexivity | | ].
    + change (index_at [b0] 0) with (Ok b0). cbn [llen length N.of_nat N.eqb Pos.eqb Pos.of_succ_nat bind].
      destruct (b0 =? 0); reflexivity.
    + replace (llen (b0 :: b1 :: r) =? 1) with false by (unfold llen; cbn [length]; lia). reflexivity.
  - rewrite gen_bytes_for_bit_len_eq. cbn [bind]. change (llen bs) with (len bs).
    destruct (len bs =? bytes_for_bit_len n); cbn [negb omap]; [|reflexivity].
    rewrite usize_sub_ok by (apply N.lt_le_incl, N.mod_lt; discriminate). cbn [bind].
    unfold last_error. destruct (rev bs) as [|lst ?]; cbn [unwrap_or_panic bind omap]; [reflexivity|].
    destruct (N.land lst _ =? 0); reflexivity.
Qed.

Lemma bind_abs {A B C D} (abs : A -> B) (r : C -> D) g m k k' :
  omap abs g = m -> (forall a, g = Ok a -> omap r (k a) = k' (abs a)) -> omap r (bind g k) = bind m k'.
Proof. intros <- H. destruct g; cbn [omap bind]; [apply H | ..]; reflexivity. Qed.

Lemma fold_m_abs {S T X} (abs : S -> T) (F : S -> X -> outcome S) (f : T -> X -> outcome T) l :
  (forall s x, In x l -> omap abs (F s x) = f (abs s) x) ->
  forall s, omap abs (fold_m F l s) = fold_m f l (abs s).
Proof.
  induction l as [|x r IH]; intros H s; [reflexivity|].
  cbn [fold_m]. rewrite <- (H s x (or_introl eq_refl)).
  destruct (F s x) as [s'| |]; cbn [omap bind]; [|reflexivity..].
  apply IH. intros t y Hy. apply H. right. exact Hy.
Qed.

(** The model writes its loops as [fold_left] over an [outcome] accumulator. *)
Lemma fold_left_outcome {T X} (f : T -> X -> outcome T) l : forall acc,
  fold_left (fun acc i => do cur <- acc; f cur i) l acc = bind acc (fold_m f l).
Proof.
  induction l as [|x r IH]; intro acc; cbn [fold_left fold_m].
  - destruct acc; reflexivity.
  - rewrite IH. destruct acc; reflexivity.
Qed.

Lemma rev_range_up lo hi : rev (range_up lo hi) = range_down lo hi.
Proof. unfold range_up, range_down. rewrite map_rev. reflexivity. Qed.

Lemma shift_up_fold b n :
  shift_up b n =
  if n <=? bf_len b then
    do b1 <- fold_m (fun cur i => do x <- bf_get cur (i - n); bf_set cur i x) (range_down n (bf_len b)) b;
    fold_m (fun cur i => match bf_set cur i false with Ok c => Ok c | _ => Panic end) (range_up 0 n) b1
  else Err.
Proof.
  unfold shift_up. destruct (n <=? bf_len b); [|reflexivity].
  rewrite fold_left_outcome. cbn [bind]. destruct (fold_m _ (range_down n (bf_len b)) b); cbn [bind]; try reflexivity.
  rewrite fold_left_outcome. reflexivity.
Qed.

(** Both loops are the model's loops under [bf_abs]; the first one subtracts [n] from indices that
    are at least [n]. *)
Theorem gen_bitfield_shift_up_eq b n :
  omap bf_abs (Gen.bitfield_shift_up b n) = shift_up (bf_abs b) n.
Proof.
  rewrite shift_up_fold. unfold Gen.bitfield_shift_up. cbn [Gen.bitfield_len bind].
  change (Gen.Bitfield_len b) with (bf_len (bf_abs b)). destruct (n <=? bf_len (bf_abs b)); [|reflexivity].
  rewrite rev_range_up. apply (bind_abs bf_abs).
  - apply fold_m_abs. intros s i Hi. apply in_map_iff in Hi as (k & <- & _).
    rewrite usize_sub_ok by lia. cbn [bind].
    rewrite gen_bitfield_get_eq. destruct (bf_get (bf_abs s) _) as [x| |]; cbn [bind omap]; try reflexivity.
    rewrite <- gen_bitfield_set_eq. destruct (Gen.bitfield_set s _ x); reflexivity.
  - intros b1 _. rewrite bind_ret. apply fold_m_abs. intros s i _.
    rewrite <- gen_bitfield_set_eq. destruct (Gen.bitfield_set s i false); reflexivity.
Qed.

Lemma fold_m_app {S X} (F : S -> X -> outcome S) l1 l2 s :
  fold_m F (l1 ++ l2) s = do s' <- fold_m F l1 s; fold_m F l2 s'.
Proof.
  revert s. induction l1 as [|x r IH]; intro s; cbn [app fold_m bind]; [reflexivity|].
  destruct (F s x); cbn [bind]; [apply IH | reflexivity | reflexivity].
Qed.

Lemma range_up_nil i hi : hi <= i -> range_up i hi = [].
Proof. intro H. unfold range_up. replace (N.to_nat (hi - i)) with O by lia. reflexivity. Qed.

Lemma range_up_cons i hi : i < hi -> range_up i hi = i :: range_up (i + 1) hi.
Proof.
  intro H. unfold range_up. replace (N.to_nat (hi - i)) with (S (N.to_nat (hi - (i + 1)))) by lia.
  rewrite <- cons_seq, <- seq_shift, map_cons, map_map. f_equal; [lia|]. apply map_ext. intro k. lia.
Qed.

Lemma range_up_0 n : range_up 0 (N.of_nat n) = map N.of_nat (seq 0 n).
Proof. unfold range_up. rewrite N.sub_0_r, Nnat.Nat2N.id. reflexivity. Qed.

Lemma range_up_S k : range_up 0 (N.succ k) = range_up 0 k ++ [k].
Proof.
  rewrite <- (Nnat.N2Nat.id k), <- Nnat.Nat2N.inj_succ, !range_up_0, seq_S, map_app. reflexivity.
Qed.

Lemma length_range_up n : length (range_up 0 (N.of_nat n)) = n.
Proof. rewrite range_up_0, map_length. apply seq_length. Qed.

Lemma mapM_range_cons {B} (h : N -> outcome B) n :
  mapM h (range_up 0 (N.of_nat (S n)))
  = do x <- h 0; do r <- mapM (fun i => h (N.succ i)) (range_up 0 (N.of_nat n)); Ok (x :: r).
Proof.
  rewrite !range_up_0, <- cons_seq, <- seq_shift. cbn [map mapM]. rewrite map_map, !mapM_map.
  rewrite (mapM_ext (fun k => h (N.of_nat (S k))) (fun k => h (N.succ (N.of_nat k)))); [reflexivity|].
  intro k. apply f_equal, Nnat.Nat2N.inj_succ.
Qed.

Lemma index_at_succ {A} (x : A) r i : index_at (x :: r) (N.succ i) = index_at r i.
Proof. unfold index_at. rewrite Nnat.N2Nat.inj_succ. reflexivity. Qed.

Lemma nth_error_mid {A} (p : list A) x s : nth_error (p ++ x :: s) (length p) = Some x.
Proof. induction p; [reflexivity | assumption]. Qed.

Lemma set_at_mid {A} (p : list A) x s v : set_at (p ++ x :: s) (N.of_nat (length p)) v = Ok (p ++ v :: s).
Proof.
  unfold set_at. rewrite Nnat.Nat2N.id.
  induction p as [|y r IH]; cbn [app length set_at_nat]; [reflexivity|]. rewrite IH. reflexivity.
Qed.

Lemma upd_at_mid (p : list N) x s v : upd_at (p ++ x :: s) (N.of_nat (length p)) v = p ++ v :: s.
Proof.
  induction p as [|y r IH]; cbn [app length upd_at]; [reflexivity|].
  replace (N.of_nat (S (length r)) =? 0) with false by lia.
  replace (N.of_nat (S (length r)) - 1) with (N.of_nat (length r)) by lia. rewrite IH. reflexivity.
Qed.

Lemma skipn_nth_error {A} (l : list A) k x s : skipn k l = x :: s -> nth_error l k = Some x.
Proof.
  revert l. induction k as [|k IH]; intros [|y r] H; try discriminate; [injection H as -> _; reflexivity | exact (IH r H)].
Qed.

Lemma skipn_cons_nth {A} (l : list A) k : (k < length l)%nat -> exists x, skipn k l = x :: skipn (S k) l.
Proof.
  revert k. induction l as [|y r IH]; intros k H; [cbn in H; lia|].
  destruct k; [eexists; reflexivity|]. cbn [skipn]. apply IH. cbn [length] in H. lia.
Qed.

(** [for i in 0..k { b.bytes[i] = g(i) }], for any loop body [F] that does this at the index just
    behind the part already written ([x :: s] is what is left of the initial bytes): the values
    are [g] over the indices, left to right, up to the first failure. *)
Lemma index_loop (F : Gen.Bitfield -> N -> outcome Gen.Bitfield) (g : N -> outcome N) ab l :
  (forall p x s, skipn (length p) ab = x :: s ->
     F {| Gen.Bitfield_bytes := p ++ x :: s; Gen.Bitfield_len := l |} (N.of_nat (length p))
     = omap (fun v => {| Gen.Bitfield_bytes := p ++ v :: s; Gen.Bitfield_len := l |}) (g (N.of_nat (length p)))) ->
  forall k, (k <= length ab)%nat ->
  fold_m F (range_up 0 (N.of_nat k)) {| Gen.Bitfield_bytes := ab; Gen.Bitfield_len := l |}
  = omap (fun vs => {| Gen.Bitfield_bytes := vs ++ skipn k ab; Gen.Bitfield_len := l |}) (mapM g (range_up 0 (N.of_nat k))).
Proof.
  intro HF. induction k as [|k IH]; intro Hk; [reflexivity|].
  rewrite Nnat.Nat2N.inj_succ, range_up_S, fold_m_app, mapM_app, IH by lia.
  destruct (mapM g (range_up 0 (N.of_nat k))) as [vs| |] eqn:Em; cbn [omap bind]; try reflexivity.
  apply mapM_length in Em. rewrite length_range_up in Em. subst k.
  destruct (skipn_cons_nth ab (length vs) Hk) as (x & Hx). rewrite Hx in *.
  cbn [mapM fold_m]. rewrite (HF vs x _ Hx).
  destruct (g (N.of_nat (length vs))) as [v| |]; cbn [bind omap]; try reflexivity.
  rewrite <- app_assoc. reflexivity.
Qed.

(** [difference_inplace]: the index loop over the common byte prefix is the pointwise [a & !o]. *)
Lemma diff_bytes_mapm (a o : bytes) :
  omap (fun vs => vs ++ skipn (Nat.min (length a) (length o)) a)
       (mapM (fun i => do x <- index_at a i; do y <- index_at o i; Ok (N.land x (not8 y)))
             (range_up 0 (N.of_nat (Nat.min (length a) (length o)))))
  = Ok (diff_bytes a o).
Proof.
  revert o. induction a as [|x ar IH]; intros [|y or]; try reflexivity.
  cbn [length Nat.min]. rewrite mapM_range_cons. change (index_at (x :: ar) 0) with (Ok x). change (index_at (y :: or) 0) with (Ok y).
  cbn [bind]. specialize (IH or).
  rewrite (mapM_ext _ (fun i => do x <- index_at ar i; do y <- index_at or i; Ok (N.land x (not8 y))))
    by (intro i; rewrite !index_at_succ; reflexivity).
  destruct (mapM _ _) as [vs| |]; cbn [omap] in IH; try discriminate. cbn [diff_bytes]. injection IH as <-. reflexivity.
Qed.

Theorem gen_bitfield_difference_inplace_eq a o :
  omap bf_abs (Gen.bitfield_difference_inplace a o) = Ok (difference_inplace (bf_abs a) (bf_abs o)).
Proof.
  unfold Gen.bitfield_difference_inplace, difference_inplace. destruct a as [ab al], o as [ob ol]. gen_proj.
  unfold llen. rewrite <- Nnat.Nat2N.inj_min.
  rewrite (index_loop _ (fun i => do x <- index_at ab i; do y <- index_at ob i; Ok (N.land x (not8 y)))); [| | apply Nat.le_min_l].
  - pose proof (diff_bytes_mapm ab ob) as H.
    destruct (mapM _ _); cbn [omap] in H; try discriminate. injection H as <-. reflexivity.
  - intros p x s Hx. gen_proj. unfold index_at at 1 3. rewrite Nnat.Nat2N.id, nth_error_mid, (skipn_nth_error _ _ _ _ Hx).
    cbn [bind]. destruct (index_at ob _); cbn [bind omap]; try reflexivity.
    rewrite set_at_mid. reflexivity.
Qed.

Print Assumptions gen_sanitize_offset_eq.
Print Assumptions gen_read_offset_eq.
Print Assumptions gen_split_union_bytes_eq.
Print Assumptions gen_encode_length_eq.
Print Assumptions gen_bytes_for_bit_len_eq.
Print Assumptions gen_builder_register_eq.
Print Assumptions gen_builder_finalize_eq.
Print Assumptions gen_encoder_append_eq.
Print Assumptions gen_encoder_finalize_eq.
Print Assumptions gen_bitfield_get_eq.
Print Assumptions gen_bitfield_set_eq.
Print Assumptions gen_bitfield_from_raw_bytes_eq.
Print Assumptions gen_bitfield_shift_up_eq.
Print Assumptions gen_bitfield_difference_inplace_eq.
