(** * Facts about [decode_list_of_variable_length_items] ([Codec.decode_list_var]) and
    [Vec<T>::from_ssz_bytes] ([Codec.dec_seq]): C05, C06, C09 (lists), C16.

    [lv_path] says which slices the walk over the offset table hands out, without any item
    decoder; [lv_items] is [mapM] over a path; a path over the whole table and a tiling of the
    input ([lv_tiled]) are the same thing. *)
From SSZ Require Import Base BaseFacts Offsets OffsetsFacts Layout LayoutFacts Codec.
From Coq Require Import ZArith ZifyN ZifyNat ZifyBool.
Open Scope N_scope.

(** What the input announces: the first offset word, when it is a well-formed table size. *)
Definition announced (bs : bytes) (n : N) : Prop :=
  exists first, read_offset bs = Ok first /\ first <= len bs /\ first mod 4 = 0 /\ 4 <= first /\ n = first / 4.

Lemma bind_Ok_r {A} (o : outcome A) : bind o (fun x => Ok x) = o.
Proof. apply bind_ret. Qed.

Lemma bind_collect_vec {A} (o : outcome (list A)) : bind o (collect_kind CVec) = o.
Proof. apply bind_Ok_r. Qed.

Lemma collect_kind_no_panic {A} c (l : list A) : collect_kind c l <> Panic.
Proof. destruct c; cbn [collect_kind]; try discriminate. destruct (_ <=? _); discriminate. Qed.

Lemma mapM_no_panic_rel {A B} (Q : A -> Prop) (f : A -> outcome B) l :
  Forall Q l -> (forall x, Q x -> f x <> Panic) -> mapM f l <> Panic.
Proof.
  intros Hall Hf. induction Hall as [|x l Hx _ IH]; cbn [mapM]; [discriminate|].
  specialize (Hf x Hx). destruct (f x); cbn [bind]; try congruence.
  destruct (mapM f l); cbn [bind]; congruence.
Qed.

Lemma len_assemble_fixed_var off (l : list bytes) :
  len (assemble_fixed off (map (fun s => (false, s)) l)) = 4 * N.of_nat (length l).
Proof.
  revert off; induction l as [|s l IH]; intros off; cbn [map assemble_fixed length]; [reflexivity|].
  rewrite len_app, encode_length_len, IH. lia.
Qed.

Lemma var_concat_var (l : list bytes) : var_concat (map (fun s => (false, s)) l) = concat l.
Proof.
  unfold var_concat. induction l as [|s l IH]; cbn [map concat fst snd]; [reflexivity|].
  f_equal. exact IH.
Qed.

Lemma read_offset_take bs v :
  wfb bs -> read_offset bs = Ok v -> take 4 bs = encode_length v /\ v < 4294967296.
Proof.
  intros Hw H. apply read_offset_ok in H as [Hl ->].
  destruct (encode_length_le_val (firstn 4 bs)) as [E B].
  - rewrite firstn_length. unfold len in Hl. lia.
  - apply wfb_firstn; exact Hw.
  - split; [|exact B]. symmetry. exact E.
Qed.

(** ** Predicates preserved by taking sub-slices
    The item decoder is only known not to panic on slices satisfying a predicate inherited
    from the input. *)
Definition slice_closed (Q : bytes -> Prop) : Prop :=
  forall bs a b, Q bs -> Q (take a (drop b bs)).

Lemma sc_take (Q : bytes -> Prop) bs a : slice_closed Q -> Q bs -> Q (take a bs).
Proof. intros Hsc HQ. rewrite <- (drop_0 bs). apply Hsc. exact HQ. Qed.

Lemma sc_drop (Q : bytes -> Prop) bs b : slice_closed Q -> Q bs -> Q (drop b bs).
Proof. intros Hsc HQ. rewrite <- (take_all (drop b bs)). apply Hsc. exact HQ. Qed.

Lemma sc_true : slice_closed (fun _ => True).
Proof. intros bs a b _. exact I. Qed.

Lemma sc_app_l (Q : bytes -> Prop) a b : slice_closed Q -> Q (a ++ b) -> Q a.
Proof. intros HQ H. rewrite <- (take_app_exact a b). now apply sc_take. Qed.
Lemma sc_app_r (Q : bytes -> Prop) a b : slice_closed Q -> Q (a ++ b) -> Q b.
Proof. intros HQ H. rewrite <- (drop_app_exact a b). now apply sc_drop. Qed.
Lemma sc_asm_fixed (Q : bytes -> Prop) parts : slice_closed Q -> forall off,
  Q (assemble_fixed off parts) -> Forall (fun p : part => fst p = true -> Q (snd p)) parts.
Proof.
  intros HQ. induction parts as [|[[|] b] r IH]; intros off H; cbn [assemble_fixed] in H; constructor; cbn [fst snd].
  - intros _. eapply sc_app_l; eauto.
  - eapply IH. eapply sc_app_r; eauto.
  - discriminate.
  - eapply IH. eapply sc_app_r; eauto.
Qed.
Lemma sc_var_concat (Q : bytes -> Prop) parts : slice_closed Q ->
  Q (var_concat parts) -> Forall (fun p : part => fst p = false -> Q (snd p)) parts.
Proof.
  intros HQ. induction parts as [|[[|] b] r IH]; intros H; constructor; cbn [fst snd].
  - discriminate.
  - rewrite var_concat_true in H. auto.
  - intros _. rewrite var_concat_false in H. eapply sc_app_l; eauto.
  - rewrite var_concat_false in H. apply IH. eapply sc_app_r; eauto.
Qed.
Lemma sc_asm (Q : bytes -> Prop) nf parts : slice_closed Q ->
  Q (assemble nf parts) -> Forall (fun p : part => Q (snd p)) parts.
Proof.
  intros HQ H. unfold assemble in H.
  pose proof (sc_asm_fixed Q parts HQ nf (sc_app_l Q _ _ HQ H)) as H1.
  pose proof (sc_var_concat Q parts HQ (sc_app_r Q _ _ HQ H)) as H2.
  rewrite Forall_forall in *. intros p Hp. destruct (fst p) eqn:E; auto.
Qed.
Lemma wfb_slice_closed : slice_closed wfb.
Proof. intros bs a b H. now apply wfb_take, wfb_drop. Qed.

Lemma concat_slices (Q : bytes -> Prop) (l : list bytes) :
  slice_closed Q -> Q (concat l) -> Forall Q l.
Proof.
  intros Hsc. induction l as [|s r IH]; intros HQ; [constructor|].
  cbn [concat] in HQ. constructor.
  - rewrite <- (take_app_exact s (concat r)). apply sc_take; assumption.
  - apply IH. rewrite <- (drop_app_exact s (concat r)). apply sc_drop; assumption.
Qed.

(** The concrete predicate used by the generic theorem. *)
Definition phys (s : bytes) : Prop := wfb s /\ len s <= usize_max.

Lemma phys_slice_closed : slice_closed phys.
Proof.
  intros bs a b [Hw Hl]. split.
  - apply wfb_take, wfb_drop. exact Hw.
  - etransitivity; [|exact Hl]. transitivity (len (drop b bs)).
    + unfold len, take. rewrite firstn_length, Nat2N.inj_min. apply N.le_min_r.
    + rewrite len_drop. apply N.le_sub_l.
Qed.
Lemma phys_cons b bs : phys (b :: bs) -> phys bs.
Proof. apply (sc_drop phys (b :: bs) 1 phys_slice_closed). Qed.
Lemma phys_take n bs : phys bs -> phys (take n bs).
Proof. apply sc_take, phys_slice_closed. Qed.
Lemma phys_drop n bs : phys bs -> phys (drop n bs).
Proof. apply sc_drop, phys_slice_closed. Qed.

(** One step of the item iterator: the slice for item [i] and the offset that ends it (the
    [slice_and_offset] of [Codec.lv_items]). *)
Definition lv_sao (bs : bytes) (first n i offset : N) : outcome (bytes * N) :=
  if i =? n then
    do s <- ok_or (get_from bs offset); Ok (s, offset)
  else
    do rest <- index_from bs (i * BYTES_PER_LENGTH_OFFSET);
    do next <- read_offset rest;
    do off' <- sanitize_offset next (Some offset) (len bs) (Some first);
    do s <- ok_or (get_range bs offset off');
    Ok (s, off').

Lemma lv_items_S {A} (d : bytes -> outcome A) bs first n fuel i offset :
  lv_items d bs first n (S fuel) i offset =
  match lv_sao bs first n i offset with
  | Ok (s, off') =>
      match d s with
      | Ok x => let r := lv_items d bs first n fuel (i + 1) off' in
                (omap (cons x) (fst r), 1 + snd r)
      | Err => (Err, 1)
      | Panic => (Panic, 1)
      end
  | Err => (Err, 0)
  | Panic => (Panic, 0)
  end.
Proof. reflexivity. Qed.

(** The step without its option and error plumbing.  The only panic site is the indexing
    [bytes[i * 4..]] into the table. *)
Lemma lv_sao_eq bs first n i offset :
  lv_sao bs first n i offset =
  if i =? n then if offset <=? len bs then Ok (drop offset bs, offset) else Err
  else if 4 * i <=? len bs then
    do next <- read_offset (drop (4 * i) bs);
    if (first <=? next) && (next <=? len bs) && (offset <=? next)
    then Ok (take (next - offset) (drop offset bs), next) else Err
  else Panic.
Proof.
  unfold lv_sao, index_from, get_from, BYTES_PER_LENGTH_OFFSET. rewrite (N.mul_comm i 4).
  destruct (i =? n); [destruct (offset <=? len bs); reflexivity|].
  destruct (4 * i <=? len bs); [|reflexivity]. cbn [bind].
  destruct (read_offset _) as [next| |]; [|reflexivity..]. cbn [bind].
  unfold sanitize_offset, get_range. cbn [is_some_and is_none andb]. rewrite !N.ltb_antisym.
  destruct (first <=? next), (next <=? len bs) eqn:E1, (offset <=? next) eqn:E2;
    cbn [negb bind andb]; rewrite ?E1, ?E2; reflexivity.
Qed.

Lemma lv_sao_last bs first n offset :
  offset <= len bs -> lv_sao bs first n n offset = Ok (drop offset bs, offset).
Proof.
  intros H. rewrite lv_sao_eq, N.eqb_refl, (proj2 (N.leb_le _ _) H). reflexivity.
Qed.

Lemma lv_sao_mid bs first n i offset next :
  i <> n -> 4 * i <= len bs -> read_offset (drop (4 * i) bs) = Ok next ->
  first <= next -> next <= len bs -> offset <= next ->
  lv_sao bs first n i offset = Ok (take (next - offset) (drop offset bs), next).
Proof.
  intros Hi Hl Hr H1 H2 H3.
  rewrite lv_sao_eq, Hr, (proj2 (N.eqb_neq _ _) Hi), (proj2 (N.leb_le _ _) Hl). cbn [bind].
  rewrite (proj2 (N.leb_le _ _) H1), (proj2 (N.leb_le _ _) H2), (proj2 (N.leb_le _ _) H3). reflexivity.
Qed.

Lemma lv_sao_inv bs first n i offset s off' :
  lv_sao bs first n i offset = Ok (s, off') ->
  (i = n /\ off' = offset /\ offset <= len bs /\ s = drop offset bs) \/
  (i <> n /\ 4 * i <= len bs /\ read_offset (drop (4 * i) bs) = Ok off' /\
   first <= off' /\ off' <= len bs /\ offset <= off' /\
   s = take (off' - offset) (drop offset bs)).
Proof.
  rewrite lv_sao_eq. destruct (i =? n) eqn:E.
  - destruct (offset <=? len bs) eqn:E1; [|discriminate]. intros [= <- <-].
    apply N.eqb_eq in E. apply N.leb_le in E1. left. repeat split; assumption.
  - destruct (4 * i <=? len bs) eqn:E1; [|discriminate].
    destruct (read_offset _) as [next| |] eqn:Er; try discriminate. cbn [bind].
    destruct (first <=? next) eqn:E2, (next <=? len bs) eqn:E3, (offset <=? next) eqn:E4; try discriminate.
    intros [= <- <-]. apply N.eqb_neq in E. apply N.leb_le in E1, E2, E3, E4. right. repeat split; assumption.
Qed.

Lemma lv_sao_no_panic bs first n i offset :
  (i <> n -> 4 * i <= len bs) -> lv_sao bs first n i offset <> Panic.
Proof.
  intros H. rewrite lv_sao_eq. destruct (i =? n) eqn:E; [destruct (offset <=? len bs); discriminate|].
  apply N.eqb_neq, H, N.leb_le in E. rewrite E.
  pose proof (read_offset_not_panic (drop (4 * i) bs)) as Hr.
  destruct (read_offset _); cbn [bind]; [destruct (_ && _ && _); discriminate|discriminate|congruence].
Qed.

Lemma lv_sao_slice (Q : bytes -> Prop) bs first n i offset s off' :
  slice_closed Q -> Q bs -> lv_sao bs first n i offset = Ok (s, off') -> Q s.
Proof.
  intros Hsc HQ H.
  apply lv_sao_inv in H as [(_ & _ & _ & ->) | (_ & _ & _ & _ & _ & _ & ->)].
  - apply sc_drop; assumption.
  - apply Hsc. exact HQ.
Qed.

Lemma lv_items_no_panic_rel {A} (Q : bytes -> Prop) (d : bytes -> outcome A) bs first n :
  slice_closed Q -> Q bs -> (forall s, Q s -> d s <> Panic) -> 4 * n <= len bs ->
  forall fuel i offset, N.of_nat fuel + i <= n + 1 ->
  fst (lv_items d bs first n fuel i offset) <> Panic.
Proof.
  intros Hsc HQ Hd Hn. induction fuel as [|fuel IH]; intros i offset Hf.
  - cbn. discriminate.
  - rewrite lv_items_S.
    pose proof (lv_sao_no_panic bs first n i offset) as Hs.
    destruct (lv_sao bs first n i offset) as [[s off']| |] eqn:Es; cbn [fst].
    + specialize (Hd s (lv_sao_slice Q _ _ _ _ _ _ _ Hsc HQ Es)).
      destruct (d s) as [x| |]; cbn [fst]; try congruence.
      specialize (IH (i + 1) off').
      destruct (fst (lv_items d bs first n fuel (i + 1) off')); cbn [omap]; try discriminate.
      apply IH. lia.
    + discriminate.
    + exfalso. apply Hs; [intros; lia|reflexivity].
Qed.

Lemma lv_items_count {A} (d : bytes -> outcome A) bs first n fuel i offset :
  snd (lv_items d bs first n fuel i offset) <= N.of_nat fuel.
Proof.
  revert i offset. induction fuel as [|fuel IH]; intros i offset.
  - cbn. lia.
  - rewrite lv_items_S.
    destruct (lv_sao bs first n i offset) as [[s off']| |]; cbn [snd]; try lia.
    destruct (d s) as [x| |]; cbn [snd]; try lia.
    specialize (IH (i + 1) off'). lia.
Qed.

(** The slices handed out from state [(i, offset)] on, as long as the structure holds. *)
Fixpoint lv_path (bs : bytes) (first n i offset : N) (slices : list bytes) : Prop :=
  match slices with
  | [] => True
  | s :: rest =>
      exists off', lv_sao bs first n i offset = Ok (s, off') /\ lv_path bs first n (i + 1) off' rest
  end.

Lemma lv_items_path {A} (d : bytes -> outcome A) bs first n slices : forall i offset,
  lv_path bs first n i offset slices ->
  fst (lv_items d bs first n (length slices) i offset) = mapM d slices.
Proof.
  induction slices as [|s rest IH]; intros i offset H; [reflexivity|].
  destruct H as (off' & Hs & H). cbn [length mapM]. rewrite lv_items_S, Hs.
  destruct (d s) as [x| |]; cbn [fst bind]; try reflexivity.
  rewrite (IH _ _ H). destruct (mapM d rest); reflexivity.
Qed.

Lemma lv_items_ok_path {A} (d : bytes -> outcome A) bs first n fuel : forall i offset vs,
  fst (lv_items d bs first n fuel i offset) = Ok vs ->
  exists slices, length slices = fuel /\ lv_path bs first n i offset slices /\ mapM d slices = Ok vs.
Proof.
  induction fuel as [|fuel IH]; intros i offset vs H.
  - exists []. injection H as <-. repeat split.
  - rewrite lv_items_S in H.
    destruct (lv_sao bs first n i offset) as [[s off']| |] eqn:Es; try discriminate.
    destruct (d s) as [x| |] eqn:Ed; try discriminate. cbn [fst] in H.
    destruct (fst (lv_items d bs first n fuel (i + 1) off')) as [vs'| |] eqn:Er; try discriminate.
    injection H as <-. destruct (IH _ _ _ Er) as (rest & Hl & Hp & Hm).
    exists (s :: rest). cbn [length lv_path mapM]. rewrite Hl, Ed, Hm. repeat split.
    exists off'. split; assumption.
Qed.

(** ** Paths and tilings
    [lv_tiled bs p offset slices]: the word at table position [p] is [offset], the words after
    it are the running sums of the slice lengths, and the slices are what follows [offset]. *)
Definition lv_tiled (bs : bytes) (p offset : N) (slices : list bytes) : Prop :=
  offset <= len bs /\
  offsets_fit offset (map (fun s => (false, s)) slices) /\
  drop offset bs = concat slices /\
  exists rest, drop (4 * p) bs = assemble_fixed offset (map (fun s => (false, s)) slices) ++ rest.

Lemma drop_slice a b (bs : bytes) : a <= b -> b <= len bs ->
  drop a bs = take (b - a) (drop a bs) ++ drop b bs /\ a + len (take (b - a) (drop a bs)) = b.
Proof.
  intros Hab Hb. split.
  - rewrite <- (take_drop (b - a) (drop a bs)) at 1. rewrite drop_drop. do 2 f_equal. lia.
  - rewrite len_take; [lia|]. rewrite len_drop. lia.
Qed.

Lemma drop_word p w (t bs : bytes) : len w = 4 -> drop (4 * p) bs = w ++ t -> drop (4 * (p + 1)) bs = t.
Proof.
  intros Hw H. replace (4 * (p + 1)) with (4 * p + len w) by lia.
  rewrite <- drop_drop, H. apply drop_app_exact.
Qed.

Lemma tiled_path bs first n : 4 * n <= len bs ->
  forall slices p offset, p + N.of_nat (length slices) = n -> first <= offset ->
  lv_tiled bs p offset slices -> lv_path bs first n (p + 1) offset slices.
Proof.
  intros Hn. induction slices as [|s todo IH]; intros p offset Hp Hf (Hle & Hfit & Hcat & rest & Htab);
    [exact I|].
  cbn [map offsets_fit concat assemble_fixed length] in *. destruct Hfit as [Hlt Hfit].
  rewrite <- app_assoc in Htab. apply drop_word in Htab; [|apply encode_length_len].
  destruct todo as [|s' todo'].
  - exists offset. split; [|exact I]. replace (p + 1) with n by lia.
    rewrite lv_sao_last, Hcat by exact Hle. cbn [concat]. rewrite app_nil_r. reflexivity.
  - assert (Hls : len s + len (concat (s' :: todo')) = len bs - offset)
      by (rewrite <- len_app, <- Hcat; apply len_drop).
    exists (offset + len s). split.
    + rewrite (lv_sao_mid bs first n (p + 1) offset (offset + len s)); try lia.
      * rewrite Hcat. replace (offset + len s - offset) with (len s) by lia.
        rewrite take_app_exact. reflexivity.
      * cbn [length] in Hp. lia.
      * rewrite Htab. cbn [map assemble_fixed]. rewrite <- app_assoc.
        apply read_offset_encode_length, Hfit.
    + apply IH; [lia|lia|]. refine (conj _ (conj Hfit (conj _ (ex_intro _ rest Htab)))); [lia|].
      rewrite <- drop_drop, Hcat. apply drop_app_exact.
Qed.

(** Conversely, on well-formed bytes a word read as [v] is [encode_length v], so a path over
    the table pins the table down byte for byte. *)
Lemma path_tiled bs first n : wfb bs ->
  forall slices p offset, slices <> [] -> p + N.of_nat (length slices) = n ->
  read_offset (drop (4 * p) bs) = Ok offset ->
  lv_path bs first n (p + 1) offset slices -> lv_tiled bs p offset slices.
Proof.
  intros Hw. induction slices as [|s todo IH]; intros p offset Hne Hp Hr Hpath; [congruence|].
  destruct Hpath as (off' & Hs & Hpath).
  destruct (read_offset_take _ _ (wfb_drop _ _ Hw) Hr) as [Htk Hlt].
  assert (Htab : drop (4 * p) bs = encode_length offset ++ drop (4 * (p + 1)) bs).
  { rewrite <- Htk, N.mul_add_distr_l, <- drop_drop. symmetry. apply take_drop. }
  cbn [length] in Hp. unfold lv_tiled. cbn [map offsets_fit concat assemble_fixed].
  apply lv_sao_inv in Hs as [(Ei & -> & Hle & ->) | (Ene & Hl4 & Hr' & H1 & H2 & H3 & ->)].
  - destruct todo; [|cbn [length] in Hp; lia].
    repeat split; auto; [symmetry; apply app_nil_r|]. eexists. exact Htab.
  - destruct (IH (p + 1) off') as (Hle & Hfit & Hcat & rest & Htab'); auto; try lia.
    { intros ->. cbn [length] in Hp. lia. }
    destruct (drop_slice offset off' bs H3 H2) as [Hsplit Hls].
    rewrite Hls, <- Hcat. repeat split; auto; [lia|].
    exists rest. rewrite Htab, Htab'. apply app_assoc.
Qed.

Lemma announced_iff bs n : announced bs n <-> read_offset bs = Ok (4 * n) /\ 1 <= n /\ 4 * n <= len bs.
Proof.
  split.
  - intros (first & Hr & Hle & Hm & H4 & ->).
    apply N.div_exact in Hm; [|discriminate]. rewrite <- Hm. repeat split; auto.
    apply N.div_le_lower_bound; [discriminate|exact H4].
  - intros (Hr & H1 & Hle). exists (4 * n). rewrite N.mul_comm, N.mod_mul, N.div_mul by discriminate.
    rewrite N.mul_comm. repeat split; auto. lia.
Qed.

Lemma lv_full_announced {A} (d : bytes -> outcome A) c bs n max :
  announced bs n ->
  decode_list_var_full d c bs max =
  if is_some_and max (fun m => m <? n) then (Err, 0, 0)
  else match c with
       | CRefusing => (Err, 0, 0)
       | _ => let r := lv_items d bs (4 * n) n (N.to_nat n) 1 (4 * n) in
              (bind (fst r) (collect_kind c), snd r, match c with CVec => n | _ => 0 end)
       end.
Proof.
  intros (first & Hr & Hle & Hm & H4 & ->).
  assert (E : 4 * (first / 4) = first) by (symmetry; apply N.div_exact; [discriminate|exact Hm]).
  unfold decode_list_var_full. destruct bs as [|b bs'].
  { rewrite read_offset_short in Hr by reflexivity. discriminate. }
  rewrite Hr.
  assert (Hs : sanitize_offset first None (len (b :: bs')) (Some first) = Ok first)
    by (apply sanitize_offset_first; split; auto).
  rewrite Hs. unfold BYTES_PER_LENGTH_OFFSET. rewrite E, Hm.
  rewrite (proj2 (N.ltb_ge first 4) H4). destruct c; reflexivity.
Qed.

(** Every input is of one of two kinds: nothing is announced and nothing happens, whatever the
    item decoder, collection and limit; or some [n] is announced and [lv_full_announced] applies. *)
Lemma lv_full_cases bs :
  (forall A (d : bytes -> outcome A) c max,
     decode_list_var_full d c bs max = (match bs with [] => collect_kind c [] | _ => Err end, 0, 0)) \/
  exists n, announced bs n.
Proof.
  destruct bs as [|b bs']; [left; reflexivity|].
  destruct (read_offset (b :: bs')) as [first| |] eqn:Hr.
  2:{ left. intros. unfold decode_list_var_full. rewrite Hr. reflexivity. }
  2:{ exfalso. eapply read_offset_not_panic; eauto. }
  destruct (sanitize_offset first None (len (b :: bs')) (Some first)) as [r| |] eqn:Hs.
  2:{ left. intros. unfold decode_list_var_full. rewrite Hr, Hs. reflexivity. }
  2:{ exfalso. eapply sanitize_offset_not_panic; eauto. }
  destruct (negb (first mod 4 =? 0) || (first <? 4)) eqn:E.
  { left. intros. unfold decode_list_var_full, BYTES_PER_LENGTH_OFFSET. rewrite Hr, Hs, E. reflexivity. }
  right. exists (first / 4), first.
  apply sanitize_offset_first in Hs as [_ Hle].
  apply orb_false_iff in E as [E1 E2]. apply negb_false_iff, N.eqb_eq in E1.
  repeat split; auto. lia.
Qed.

Theorem lv_not_announced {A} (d : bytes -> outcome A) c bs max :
  bs <> [] -> (forall n, ~ announced bs n) -> decode_list_var_full d c bs max = (Err, 0, 0).
Proof.
  intros Hne Hna. destruct (lv_full_cases bs) as [E|[n Ha]]; [|destruct (Hna n Ha)].
  rewrite E. destruct bs; [congruence|reflexivity].
Qed.

Lemma lv_vec_announced {A} (d : bytes -> outcome A) bs n :
  announced bs n ->
  decode_list_var d CVec bs None = fst (lv_items d bs (4 * n) n (N.to_nat n) 1 (4 * n)).
Proof.
  intros Ha. unfold decode_list_var. rewrite (lv_full_announced d CVec bs n None Ha).
  apply bind_collect_vec.
Qed.

Lemma decode_list_var_assemble {A} (d : bytes -> outcome A) (slices : list bytes) :
  slices <> [] ->
  offsets_fit (4 * N.of_nat (length slices)) (map (fun s => (false, s)) slices) ->
  decode_list_var d CVec (assemble (4 * N.of_nat (length slices)) (map (fun s => (false, s)) slices)) None
  = mapM d slices.
Proof.
  intros Hne Hfit.
  set (n := N.of_nat (length slices)) in *.
  set (tbl := assemble_fixed (4 * n) (map (fun s => (false, s)) slices)).
  assert (Htbl : len tbl = 4 * n) by apply len_assemble_fixed_var.
  unfold assemble. rewrite var_concat_var. fold tbl. set (bs := tbl ++ concat slices).
  assert (Hnl : 4 * n <= len bs) by (unfold bs; rewrite len_app; lia).
  assert (Ha : announced bs n).
  { apply announced_iff. repeat split; [|destruct slices; [congruence|cbn [length] in n; lia]|exact Hnl].
    unfold bs, tbl. destruct slices as [|s todo]; [congruence|].
    cbn [map assemble_fixed]. rewrite <- app_assoc. apply read_offset_encode_length, Hfit. }
  rewrite (lv_vec_announced d bs n Ha). replace (N.to_nat n) with (length slices) by lia.
  apply lv_items_path, (tiled_path bs (4 * n) n Hnl slices 0 (4 * n)); [reflexivity|lia|].
  repeat split; [exact Hnl|exact Hfit| |exists (concat slices); reflexivity].
  unfold bs. rewrite <- Htbl. apply drop_app_exact.
Qed.

Theorem decode_list_var_tiles {A} (d : bytes -> outcome A) bs vs :
  wfb bs ->
  (decode_list_var d CVec bs None = Ok vs <->
   (bs = [] /\ vs = []) \/ (exists slices, TilesList bs slices /\ mapM d slices = Ok vs)).
Proof.
  intros Hw. split.
  - intros H. destruct (lv_full_cases bs) as [E|[n Ha]].
    { left. unfold decode_list_var in H. rewrite E in H.
      destruct bs; [injection H as <-; split; reflexivity|discriminate]. }
    right. rewrite (lv_vec_announced d bs n Ha) in H.
    apply announced_iff in Ha as (Hr & Hn1 & Hnl).
    apply lv_items_ok_path in H as (slices & Hlen & Hpath & HmapM).
    assert (E4 : 4 * N.of_nat (length slices) = 4 * n) by lia.
    destruct (path_tiled bs (4 * n) n Hw slices 0 (4 * n)) as (_ & Hfit & Hcat & rest & Htab);
      [intros ->; cbn [length] in E4; lia|lia|exact Hr|exact Hpath|].
    change (drop (4 * 0) bs) with bs in Htab.
    pose proof (drop_app_exact (assemble_fixed (4 * n) (map (fun s => (false, s)) slices)) rest) as Hd.
    rewrite <- Htab, len_assemble_fixed_var, E4, Hcat in Hd. subst rest.
    exists slices. split; [|exact HmapM]. unfold TilesList, assemble. rewrite E4, var_concat_var.
    split; [intros ->; cbn [length] in E4; lia|]. split; [exact Hfit|exact Htab].
  - intros [[-> ->]|(slices & (Hne & Hfit & ->) & HmapM)].
    + reflexivity.
    + rewrite decode_list_var_assemble by assumption. exact HmapM.
Qed.

Theorem decode_list_var_no_panic_rel {A} (Q : bytes -> Prop) (d : bytes -> outcome A) c bs max :
  slice_closed Q -> Q bs -> (forall s, Q s -> d s <> Panic) -> decode_list_var d c bs max <> Panic.
Proof.
  intros Hsc HQ Hd. unfold decode_list_var.
  destruct (lv_full_cases bs) as [E|[n Ha]].
  { rewrite E. destruct bs; [apply collect_kind_no_panic|discriminate]. }
  rewrite (lv_full_announced d c bs n max Ha). apply announced_iff in Ha as (_ & _ & Hnl).
  destruct (is_some_and max (fun m => m <? n)); [discriminate|].
  pose proof (lv_items_no_panic_rel Q d bs (4 * n) n Hsc HQ Hd Hnl (N.to_nat n) 1 (4 * n)) as Hp.
  destruct c; cbn [fst]; try discriminate;
    (destruct (fst (lv_items d bs (4 * n) n (N.to_nat n) 1 (4 * n))); cbn [bind];
     [apply collect_kind_no_panic|discriminate|apply Hp; lia]).
Qed.

Theorem decode_list_var_no_panic {A} (d : bytes -> outcome A) c bs max :
  (forall s, d s <> Panic) -> decode_list_var d c bs max <> Panic.
Proof. intros Hd. apply (decode_list_var_no_panic_rel (fun _ => True)); auto using sc_true. Qed.

Theorem lv_over_limit {A} (d : bytes -> outcome A) c bs n max :
  announced bs n -> max < n -> decode_list_var_full d c bs (Some max) = (Err, 0, 0).
Proof.
  intros Ha Hm. rewrite (lv_full_announced d c bs n (Some max) Ha). cbn [is_some_and].
  destruct (max <? n) eqn:E; [reflexivity|lia].
Qed.

Theorem lv_within_limit {A} (d : bytes -> outcome A) c bs n max :
  announced bs n -> n <= max -> decode_list_var_full d c bs (Some max) = decode_list_var_full d c bs None.
Proof.
  intros Ha Hm. rewrite !(lv_full_announced d c bs n _ Ha). cbn [is_some_and].
  destruct (max <? n) eqn:E; [lia|reflexivity].
Qed.

Theorem lv_empty {A} (d : bytes -> outcome A) c max : decode_list_var d c [] max = collect_kind c [].
Proof. reflexivity. Qed.

Theorem lv_refusing {A} (d : bytes -> outcome A) bs max : decode_list_var d CRefusing bs max = Err.
Proof.
  unfold decode_list_var.
  destruct (lv_full_cases bs) as [E|[n Ha]].
  - rewrite E. destruct bs; reflexivity.
  - rewrite (lv_full_announced d CRefusing bs n max Ha).
    destruct (is_some_and max (fun m => m <? n)); reflexivity.
Qed.

Theorem lv_bounded {A} (d : bytes -> outcome A) k bs max :
  decode_list_var d (CBounded k) bs max =
  match decode_list_var d CVec bs max with
  | Ok vs => if N.of_nat (length vs) <=? k then Ok vs else Err
  | r => r
  end.
Proof.
  unfold decode_list_var.
  destruct (lv_full_cases bs) as [E|[n Ha]].
  - rewrite !E. destruct bs; reflexivity.
  - rewrite !(lv_full_announced d _ bs n max Ha).
    destruct (is_some_and max (fun m => m <? n)); [reflexivity|].
    cbn [fst]. destruct (fst (lv_items d bs (4 * n) n (N.to_nat n) 1 (4 * n))); reflexivity.
Qed.

Theorem lv_ok_length {A} (d : bytes -> outcome A) bs max vs n :
  decode_list_var d CVec bs max = Ok vs -> announced bs n -> N.of_nat (length vs) = n.
Proof.
  intros H Ha. unfold decode_list_var in H.
  rewrite (lv_full_announced d CVec bs n max Ha) in H.
  destruct (is_some_and max (fun m => m <? n)); [discriminate|].
  cbn [fst] in H. rewrite bind_collect_vec in H.
  apply lv_items_ok_path in H as (slices & Hl & _ & Hm). apply mapM_length in Hm. lia.
Qed.

Theorem lv_reserved_bound {A} (d : bytes -> outcome A) c bs max :
  snd (decode_list_var_full d c bs max) <= len bs / 4 /\
  snd (fst (decode_list_var_full d c bs max)) <= len bs / 4.
Proof.
  destruct (lv_full_cases bs) as [E|[n Ha]].
  { rewrite E. split; apply N.le_0_l. }
  rewrite (lv_full_announced d c bs n max Ha). apply announced_iff in Ha as (_ & _ & Hnl).
  assert (Hn4 : n <= len bs / 4) by (apply N.div_le_lower_bound; [discriminate|exact Hnl]).
  destruct (is_some_and max (fun m => m <? n)); [split; apply N.le_0_l|].
  pose proof (lv_items_count d bs (4 * n) n (N.to_nat n) 1 (4 * n)) as Hc.
  rewrite N2Nat.id in Hc. apply (N.le_trans _ _ _ Hc) in Hn4 as Hc4.
  destruct c; cbn [fst snd]; split; try apply N.le_0_l; assumption.
Qed.

Lemma chunks_fuel_bounds fuel n bs s :
  (0 < n)%nat -> In s (chunks_fuel fuel n bs) -> (0 < length s <= n)%nat.
Proof.
  intros Hn. revert bs. induction fuel as [|f IH]; intros bs; cbn [chunks_fuel]; [intros []|].
  destruct bs as [|b bs]; [intros []|].
  intros [<-|Hin].
  - rewrite firstn_length. cbn [length]. lia.
  - eapply IH; eauto.
Qed.

Lemma chunks_slices (Q : bytes -> Prop) n bs :
  slice_closed Q -> (0 < n)%nat -> Q bs -> Forall Q (chunks n bs).
Proof. intros Hsc Hn HQ. apply (concat_slices Q _ Hsc). rewrite chunks_concat; assumption. Qed.

Lemma chunks_fuel_concat_exact n (slices : list bytes) :
  (0 < n)%nat -> Forall (fun s => length s = n) slices ->
  forall fuel, (length (concat slices) <= fuel)%nat -> chunks_fuel fuel n (concat slices) = slices.
Proof.
  intros Hn. induction 1 as [|s r Hs _ IH]; intros fuel Hf.
  - cbn [concat]. destruct fuel; reflexivity.
  - cbn [concat] in *. rewrite app_length in Hf.
    destruct fuel as [|f]; [lia|].
    cbn [chunks_fuel]. destruct (s ++ concat r) as [|b t] eqn:E.
    { apply (f_equal (@length _)) in E. rewrite app_length in E. cbn in E. lia. }
    rewrite <- E.
    replace (firstn n (s ++ concat r)) with s.
    2:{ rewrite <- Hs, firstn_app, Nat.sub_diag, firstn_all. cbn. rewrite app_nil_r. reflexivity. }
    replace (skipn n (s ++ concat r)) with (concat r).
    2:{ rewrite <- Hs, skipn_app, Nat.sub_diag, skipn_all. reflexivity. }
    f_equal. apply IH. lia.
Qed.

(** [Ok] results only ever come from items decoded on sub-slices. *)
Lemma dec_seq_fixed_ok_rel {A} (Q : bytes -> Prop) (d : bytes -> outcome A) (k : N) bs vs :
  slice_closed Q -> Q bs -> 0 < k -> dec_seq true k d bs = Ok vs ->
  exists slices, concat slices = bs /\ mapM d slices = Ok vs /\ Forall Q slices /\
                 (forall s, In s slices -> (0 < length s <= N.to_nat k)%nat).
Proof.
  intros Hsc HQ Hk H. unfold dec_seq in H. destruct bs as [|b bs'].
  - injection H as <-. exists []. split; [reflexivity|]. split; [reflexivity|].
    split; [constructor|]. intros s [].
  - destruct (k =? 0) eqn:E; [lia|].
    exists (chunks (N.to_nat k) (b :: bs')). split; [|split; [|split]].
    + apply chunks_concat. lia.
    + exact H.
    + apply chunks_slices; [exact Hsc|lia|exact HQ].
    + intros s Hin. unfold chunks in Hin. eapply chunks_fuel_bounds; eauto. lia.
Qed.

Lemma dec_seq_fixed_ok {A} (d : bytes -> outcome A) (k : N) bs vs :
  0 < k -> dec_seq true k d bs = Ok vs ->
  exists slices, concat slices = bs /\ mapM d slices = Ok vs /\
                 (forall s, In s slices -> (0 < length s <= N.to_nat k)%nat).
Proof.
  intros Hk H.
  destruct (dec_seq_fixed_ok_rel (fun _ => True) d k bs vs sc_true I Hk H) as (slices & ? & ? & _ & ?).
  exists slices. auto.
Qed.

Lemma dec_seq_fixed_concat {A} (d : bytes -> outcome A) (k : N) (slices : list bytes) :
  0 < k -> Forall (fun s => len s = k) slices ->
  dec_seq true k d (concat slices) = mapM d slices.
Proof.
  intros Hk Hall.
  assert (Hall' : Forall (fun s : bytes => length s = N.to_nat k) slices).
  { eapply Forall_impl; [|exact Hall]. cbn. intros s Hs. unfold len in Hs. lia. }
  assert (Hch : chunks (N.to_nat k) (concat slices) = slices).
  { unfold chunks. apply chunks_fuel_concat_exact; auto; lia. }
  unfold dec_seq. destruct (concat slices) as [|b t] eqn:E.
  - destruct slices as [|s r]; [reflexivity|].
    inversion Hall' as [|? ? Hs _]; subst. cbn [concat] in E.
    apply (f_equal (@length _)) in E. rewrite app_length in E. cbn in E. lia.
  - destruct (k =? 0) eqn:Ek; [lia|]. rewrite Hch. reflexivity.
Qed.

Lemma dec_seq_no_panic_rel {A} (Q : bytes -> Prop) (d : bytes -> outcome A) f k bs :
  slice_closed Q -> Q bs -> (forall s, Q s -> d s <> Panic) -> dec_seq f k d bs <> Panic.
Proof.
  intros Hsc HQ Hd. unfold dec_seq. destruct bs as [|b bs']; [discriminate|].
  destruct f.
  - destruct (k =? 0) eqn:Ek; [discriminate|].
    apply (mapM_no_panic_rel Q); [|exact Hd]. apply chunks_slices; [exact Hsc|lia|exact HQ].
  - apply (decode_list_var_no_panic_rel Q); assumption.
Qed.

Lemma dec_seq_no_panic {A} (d : bytes -> outcome A) f k bs :
  (forall s, d s <> Panic) -> dec_seq f k d bs <> Panic.
Proof. intros Hd. apply (dec_seq_no_panic_rel (fun _ => True)); auto using sc_true. Qed.

Lemma tiles_list_slices (Q : bytes -> Prop) bs slices :
  slice_closed Q -> Q bs -> TilesList bs slices -> Forall Q slices.
Proof.
  intros Hsc HQ (_ & _ & Hbs). apply (concat_slices Q); [exact Hsc|].
  unfold assemble in Hbs. rewrite var_concat_var in Hbs.
  rewrite <- (drop_app_exact
                (assemble_fixed (4 * N.of_nat (length slices)) (map (fun s => (false, s)) slices))
                (concat slices)).
  rewrite <- Hbs. apply sc_drop; assumption.
Qed.
