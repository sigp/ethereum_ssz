(** * GenPropsCodec: properties C01 C02 C05 C09 C15 C16 C19 stated directly about the codec
    definitions that [rs2v] derives from the Rust text ([Generated.v]): the list decoder, [Vec<T>],
    [BTreeSet<T>], [Option<T>] and the leaf types.  Each statement composes a model-equals-source theorem of
    [GenEquivDec.v] / [GenEquivEnc.v] with the model theorem of the property; its subject is the
    source-derived term. *)
From SSZ Require Import Base RustSem Offsets Encoder Builder Types Codec BaseFacts OffsetsFacts
     Layout ListDecFacts AppendFacts NoPanic Canon OrderFacts RoundTrip LeafIface LeafProof Strict Generated GenEquiv GenEquivDec GenEquivEnc.
From Coq Require Import ZArith ZifyN ZifyBool ZifyNat Lia.
Open Scope N_scope.

(** ** C09: the list decoder of the source accepts exactly the tilings *)
Theorem Src_C09_list_tiles (d : bytes -> outcome val) bs vs :
  wfb bs -> len bs <= usize_max ->
  (Gen.decode_list_of_variable_length_items d vec_try_from_iter bs None = Ok vs <->
   (bs = [] /\ vs = []) \/ (exists slices, TilesList bs slices /\ mapM d slices = Ok vs)).
Proof. intros Hw Hl. rewrite gen_decode_list_vec_eq by exact Hl. apply decode_list_var_tiles. exact Hw. Qed.

(** ** C16: the limit is enforced before any item is looked at; within the limit nothing changes *)
Theorem Src_C16_over_limit (d : bytes -> outcome val) bs n max :
  len bs <= usize_max -> announced bs n -> max < n ->
  Gen.decode_list_of_variable_length_items d vec_try_from_iter bs (Some max) = Err.
Proof.
  intros Hl Ha Hm. rewrite gen_decode_list_vec_eq by exact Hl. unfold decode_list_var.
  rewrite (lv_over_limit d CVec bs n max Ha Hm). reflexivity.
Qed.

Theorem Src_C16_within_limit (d : bytes -> outcome val) bs n max :
  len bs <= usize_max -> announced bs n -> n <= max ->
  Gen.decode_list_of_variable_length_items d vec_try_from_iter bs (Some max)
  = Gen.decode_list_of_variable_length_items d vec_try_from_iter bs None.
Proof.
  intros Hl Ha Hm. rewrite !gen_decode_list_vec_eq by exact Hl. unfold decode_list_var.
  rewrite (lv_within_limit d CVec bs n max Ha Hm). reflexivity.
Qed.

Theorem Src_C16_empty (d : bytes -> outcome val) max :
  Gen.decode_list_of_variable_length_items d vec_try_from_iter [] max = Ok [].
Proof. reflexivity. Qed.

(** ** C05: no panic, for every limit, as long as the item decoder does not panic *)
Theorem Src_C05_list_decoder (d : bytes -> outcome val) bs max :
  phys bs -> (forall s, phys s -> d s <> Panic) ->
  Gen.decode_list_of_variable_length_items d vec_try_from_iter bs max <> Panic.
Proof.
  intros Hp Hd. rewrite gen_decode_list_vec_eq by (apply Hp).
  exact (decode_list_var_no_panic_rel phys d CVec bs max phys_slice_closed Hp Hd).
Qed.

(** the leaf decoders and the generic wrappers of the source never panic on physical inputs: each is, up to the
    injection into [val], a case of [dec], which does not panic *)
Lemma no_panic_under_omap {A B} {f : A -> B} {g m} : omap f g = m -> m <> Panic -> g <> Panic.
Proof. intros <- Hm ->. exact (Hm eq_refl). Qed.

Theorem Src_C05_decoders_no_panic bs :
  phys bs ->
  Gen.u8_from_ssz_bytes bs <> Panic /\ Gen.u16_from_ssz_bytes bs <> Panic /\ Gen.u32_from_ssz_bytes bs <> Panic /\
  Gen.u64_from_ssz_bytes bs <> Panic /\ Gen.u128_from_ssz_bytes bs <> Panic /\ Gen.usize_from_ssz_bytes bs <> Panic /\
  Gen.bool_from_ssz_bytes bs <> Panic /\ Gen.nonzero_from_ssz_bytes bs <> Panic /\
  Gen.u256_from_ssz_bytes bs <> Panic /\ Gen.alloy_u128_from_ssz_bytes bs <> Panic /\
  Gen.address_from_ssz_bytes bs <> Panic /\ Gen.bloom_from_ssz_bytes bs <> Panic /\
  (forall n, Gen.array_from_ssz_bytes (N.of_nat n) bs <> Panic) /\
  (forall n, Gen.fixedbytes_from_ssz_bytes (N.of_nat n) bs <> Panic) /\
  (forall t, Gen.option_from_ssz_bytes (dec t) bs <> Panic) /\
  (forall t, Gen.arc_from_ssz_bytes (dec t) bs <> Panic) /\
  (forall t, Gen.vec_from_ssz_bytes (d_is_fixed t) (d_fixed_len t) (dec t) bs <> Panic).
Proof.
  intros [Hw Hl].
  assert (NP : forall t, dec t bs <> Panic) by (intro t; apply (nopanic_facts leaf_facts t bs); split; assumption).
  repeat split; intros.
  - exact (no_panic_under_omap (gen_u8_from_ssz_bytes_eq bs) (NP _)).
  - exact (no_panic_under_omap (gen_u16_from_ssz_bytes_eq bs) (NP _)).
  - exact (no_panic_under_omap (gen_u32_from_ssz_bytes_eq bs) (NP _)).
  - exact (no_panic_under_omap (gen_u64_from_ssz_bytes_eq bs) (NP _)).
  - exact (no_panic_under_omap (gen_u128_from_ssz_bytes_eq bs) (NP _)).
  - exact (no_panic_under_omap (gen_usize_from_ssz_bytes_eq bs) (NP _)).
  - exact (no_panic_under_omap (gen_bool_from_ssz_bytes_eq bs) (NP _)).
  - exact (no_panic_under_omap (gen_nonzero_from_ssz_bytes_eq bs) (NP _)).
  - exact (no_panic_under_omap (gen_u256_from_ssz_bytes_eq bs Hw) (NP _)).
  - exact (no_panic_under_omap (gen_alloy_u128_from_ssz_bytes_eq bs Hw) (NP _)).
  - exact (no_panic_under_omap (gen_address_from_ssz_bytes_eq bs) (NP _)).
  - exact (no_panic_under_omap (gen_bloom_from_ssz_bytes_eq bs) (NP _)).
  - exact (no_panic_under_omap (gen_array_from_ssz_bytes_eq n bs) (NP _)).
  - exact (no_panic_under_omap (gen_fixedbytes_from_ssz_bytes_eq n bs) (NP _)).
  - exact (no_panic_under_omap (gen_option_from_ssz_bytes_eq t bs) (NP _)).
  - rewrite gen_arc_from_ssz_bytes_eq. apply NP.
  - exact (no_panic_under_omap (gen_vec_is_dec_TList t bs Hl) (NP _)).
Qed.

(** ** C15: [Option<T>] as written in the source: selector 0 with an empty body, selector 1 with the
    payload, nothing else *)
Theorem Src_C15_option t bs :
  Gen.option_from_ssz_bytes (dec t) bs =
  match bs with
  | [] => Err
  | s :: body =>
      if 127 <? s then Err
      else if s =? 0 then (match body with [] => Ok None | _ => Err end)
      else if s =? 1 then omap Some (dec t body)
      else Err
  end.
Proof.
  rewrite option_from_ssz_bytes_eq, split_union_bytes_spec. destruct bs as [|s body]; [reflexivity|].
  rewrite N.ltb_antisym. destruct (s <=? 127); reflexivity.
Qed.

Theorem Src_C15_option_encode t x buf :
  Gen.option_ssz_append (app_of t) (Some x) buf = Ok (buf ++ 1 :: enc t x) /\
  Gen.option_ssz_append (app_of t) None buf = Ok (buf ++ [0]).
Proof.
  split; [|reflexivity]. unfold Gen.option_ssz_append, app_of. cbn [bind]. rewrite append_spec, <- app_assoc. reflexivity.
Qed.

(** C02 on the source-derived [Vec<T>] codec, for every canonical item type: what is accepted re-encodes to itself *)
Theorem Src_C02_vec_canonical t bs vs :
  canon_type (TList t) = true -> phys bs ->
  Gen.vec_from_ssz_bytes (d_is_fixed t) (d_fixed_len t) (dec t) bs = Ok vs ->
  enc (TList t) (VList vs) = bs.
Proof.
  intros Hc Hp Hd. refine (proj1 (canon_facts leaf_facts (TList t) Hc bs (VList vs) Hp _)).
  rewrite <- (gen_vec_is_dec_TList t bs) by apply Hp. rewrite Hd. reflexivity.
Qed.

(** every offset the encoder writes for a list fits a [usize] when the total encoded length does *)
Lemma fits_run_append t : forall vs off var,
  off + len var + sumN (map (fun v => len (enc t v)) vs) <= usize_max -> fits_run (append t) off var vs.
Proof.
  induction vs as [|v r IH]; intros off var H; cbn [fits_run]; [exact I|].
  cbn [map sumN] in H. split; [lia|]. apply IH. rewrite append_spec, len_app. lia.
Qed.

(** decoding what the source's encoder produced returns the value (C01) *)
Theorem Src_C01_vec_round_trip t vs :
  rt_type (TList t) = true -> has_ty (TList t) (VList vs) = true ->
  len (enc (TList t) (VList vs)) < 4294967296 ->
  4 * llen vs + sumN (map (fun v => len (enc t v)) vs) <= usize_max ->
  e_fixed_len t * llen vs <= usize_max ->
  (do bs <- Gen.vec_ssz_append (e_is_fixed t) (e_fixed_len t) (app_of t) vs [];
   omap VList (Gen.vec_from_ssz_bytes (d_is_fixed t) (d_fixed_len t) (dec t) bs)) = Ok (VList vs).
Proof.
  intros Hrt Hty Hlen Hfit Hfix.
  rewrite gen_vec_ssz_append_eq.
  2:{ destruct (e_is_fixed t); [exact Hfix|]. split; [lia|]. apply fits_run_append. cbn [len length N.of_nat]. lia. }
  cbn [bind]. change (append (TList t) (VList vs) []) with (enc (TList t) (VList vs)).
  rewrite gen_vec_is_dec_TList by (unfold usize_max; lia).
  exact (rt_facts leaf_facts (TList t) Hrt (VList vs) Hty Hlen).
Qed.

(** ** C19 on the source-derived [BTreeSet<T>] codec: decoding is the list decoder followed by collection
    (ascending, a later equal element wins); encoding is the element list *)
Theorem Src_C19_set_decodes_by_collection t bs :
  phys bs ->
  omap VList (Gen.btreeset_from_ssz_bytes (d_is_fixed t) (d_fixed_len t) (dec t) val_cmp bs) =
  match Gen.vec_from_ssz_bytes (d_is_fixed t) (d_fixed_len t) (dec t) bs with
  | Ok es => Ok (VList (collect_entries false es))
  | Err => Err | Panic => Panic
  end.
Proof.
  intro Hp. rewrite gen_btreeset_is_dec_TSet by apply Hp.
  pose proof (gen_vec_is_dec_TList t bs ltac:(apply Hp)) as E.
  rewrite Strict.dec_set_is_collect, <- E.
  destruct (Gen.vec_from_ssz_bytes (d_is_fixed t) (d_fixed_len t) (dec t) bs); reflexivity.
Qed.

Theorem Src_C19_set_result_sorted kt bs es :
  key_type kt = true -> phys bs ->
  Gen.vec_from_ssz_bytes (d_is_fixed kt) (d_fixed_len kt) (dec kt) bs = Ok es -> keys_typed kt false es ->
  exists vs, Gen.btreeset_from_ssz_bytes (d_is_fixed kt) (d_fixed_len kt) (dec kt) val_cmp bs = Ok vs /\
    strictly_sorted false vs = true /\ (forall e, In e vs -> In e es).
Proof.
  intros Hk Hp Hv Hty.
  pose proof (Src_C19_set_decodes_by_collection kt bs Hp) as E. rewrite Hv in E.
  destruct (omap_ok _ _ _ E) as (vs & -> & [= <-]). exists (collect_entries false es). split; [reflexivity|].
  split; [exact (collect_is_sorted kt false es Hk Hty) | intros e; apply collect_incl].
Qed.

Theorem Src_C19_set_encodes_as_list t vs buf :
  Gen.btreeset_ssz_append (e_is_fixed t) (e_fixed_len t) (app_of t) vs buf
  = Gen.vec_ssz_append (e_is_fixed t) (e_fixed_len t) (app_of t) vs buf.
Proof. reflexivity. Qed.

Print Assumptions Src_C09_list_tiles.
Print Assumptions Src_C16_over_limit.
Print Assumptions Src_C16_within_limit.
Print Assumptions Src_C05_list_decoder.
Print Assumptions Src_C05_decoders_no_panic.
Print Assumptions Src_C15_option.
Print Assumptions Src_C02_vec_canonical.
Print Assumptions Src_C01_vec_round_trip.
Print Assumptions Src_C19_set_decodes_by_collection.
Print Assumptions Src_C19_set_result_sorted.
Print Assumptions Src_C19_set_encodes_as_list.
