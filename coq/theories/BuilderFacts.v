(** * The [SszDecoderBuilder] model succeeds exactly on tiled inputs (C09; C05 and C06 through it).

    Everything goes through one description of the fixed portion of an input, [raw_at]: what
    the registration sequence cuts out of it, item by item.  From it are read off both what the
    spelled-out specification [SplitSpec.split] computes and what a run of the builder does;
    [Layout.Tiles] is tied to it once, in each direction. *)
From SSZ Require Import Base BaseFacts Offsets OffsetsFacts Builder Layout LayoutFacts SplitSpec.
From Coq Require Import ZArith ZifyN ZifyNat ZifyBool.
Open Scope N_scope.

Lemma fixed_size_nil : fixed_size [] = 0. Proof. reflexivity. Qed.

Lemma wfb_assemble nf parts : Forall (fun p : part => wfb (snd p)) parts -> wfb (assemble nf parts).
Proof. apply wfb_asm. Qed.

Lemma decode_all_mapM {A} (items : list bytes) (fs : list (bytes -> outcome A)) :
  length items = length fs ->
  decode_all items fs = mapM (fun p : (bytes -> outcome A) * bytes => fst p (snd p)) (combine fs items).
Proof.
  revert items; induction fs as [|f fr IH]; intros items Hl.
  - reflexivity.
  - destruct items as [|s r]; [discriminate|].
    cbn [decode_all decode_next combine mapM fst snd].
    destruct (f s) as [a| |]; cbn [bind snd fst]; try reflexivity.
    rewrite IH by (cbn [length] in Hl; lia). reflexivity.
Qed.

Lemma decode_all_no_panic_rel {A} (Q : bytes -> Prop) (fs : list (bytes -> outcome A)) : forall items,
  Forall Q items -> (length fs <= length items)%nat ->
  (forall f s, In f fs -> Q s -> f s <> Panic) -> decode_all items fs <> Panic.
Proof.
  induction fs as [|f fs IH]; intros items HQ Hl H; cbn [decode_all]; [discriminate|].
  destruct HQ as [|s items Hs HQ]; cbn [length] in Hl; [lia|]. cbn [decode_next].
  pose proof (H f s (or_introl eq_refl) Hs) as Hf.
  destruct (f s) as [a| |]; cbn [bind fst snd]; try congruence.
  specialize (IH items HQ ltac:(lia) (fun g x Hg => H g x (or_intror Hg))).
  destruct (decode_all items fs); cbn [bind]; congruence.
Qed.

Lemma decode_all_no_panic {A} (items : list bytes) (fs : list (bytes -> outcome A)) :
  (length fs <= length items)%nat -> (forall f s, In f fs -> f s <> Panic) -> decode_all items fs <> Panic.
Proof.
  intros Hl Hf. apply (decode_all_no_panic_rel (fun _ => True)); auto. apply Forall_forall. auto.
Qed.

Lemma combine_fst_snd {A B} (l : list (A * B)) : combine (map fst l) (map snd l) = l.
Proof. induction l as [|[a b] l IH]; cbn [map combine fst snd]; [reflexivity|]. rewrite IH. reflexivity. Qed.

Lemma map_combine {A B} (a : list A) : forall b : list B,
  length b = length a -> map fst (combine a b) = a /\ map snd (combine a b) = b.
Proof.
  induction a as [|x a IH]; intros [|y b] H; try discriminate; [split; reflexivity|].
  injection H as H. destruct (IH b H) as [E1 E2]. cbn [combine map fst snd]. rewrite E1, E2. split; reflexivity.
Qed.
Lemma map_fst_combine' {A B} (a : list A) (b : list B) : length b = length a -> map fst (combine a b) = a.
Proof. apply map_combine. Qed.
Lemma map_snd_combine' {A B} (a : list A) (b : list B) : length b = length a -> map snd (combine a b) = b.
Proof. apply map_combine. Qed.

(** ** The fixed portion, cut as the registration sequence says

    [(true, slice)] for a fixed-size item, [(false, word)] (the four bytes of its offset word)
    for a variable-size one, the first item starting at [c]. *)
Fixpoint raw_at (regs : list (bool * N)) (c : N) (bs : bytes) : list part :=
  match regs with
  | [] => []
  | r :: rest => (fst r, take (reg_width r) (drop c bs)) :: raw_at rest (c + reg_width r) bs
  end.

(** The offsets a cut announces, in order. *)
Fixpoint raw_offs (raw : list part) : list N :=
  match raw with
  | [] => []
  | (true, _) :: r => raw_offs r
  | (false, w) :: r => le_val w :: raw_offs r
  end.

(** [prev <= o1 <= ... <= ok <= n] for the offsets [o1 .. ok] of [raw]. *)
Fixpoint chain (prev : N) (raw : list part) (n : N) : Prop :=
  match raw with
  | [] => prev <= n
  | (true, _) :: r => chain prev r n
  | (false, w) :: r => prev <= le_val w /\ chain (le_val w) r n
  end.

(** The items: fixed ones as they stand, a variable one from its offset to the next offset
    (to the end of the input for the last). *)
Fixpoint fill_parts (bs : bytes) (raw : list part) : list part :=
  match raw with
  | [] => []
  | (true, b) :: r => (true, b) :: fill_parts bs r
  | (false, w) :: r =>
      (false, take (hd (len bs) (raw_offs r) - le_val w) (drop (le_val w) bs)) :: fill_parts bs r
  end.

Lemma fixed_end_cons r regs : fixed_end (r :: regs) = reg_width r + fixed_end regs.
Proof. reflexivity. Qed.

Lemma raw_at_fst regs bs : forall c, map fst (raw_at regs c bs) = map fst regs.
Proof. induction regs as [|r regs IH]; intros c; cbn [raw_at map fst]; [|rewrite IH]; reflexivity. Qed.

Lemma fill_parts_fst bs raw : map fst (fill_parts bs raw) = map fst raw.
Proof.
  induction raw as [|[[|] w] r IH]; cbn [fill_parts map fst]; [reflexivity| |]; rewrite IH; reflexivity.
Qed.

Lemma chain_bounds prev raw n :
  chain prev raw n -> prev <= hd n (raw_offs raw) /\ hd n (raw_offs raw) <= n.
Proof.
  revert prev; induction raw as [|[[|] b] r IH]; intros prev; cbn [chain raw_offs hd].
  - lia.
  - apply IH.
  - intros [H1 H2]. apply IH in H2. lia.
Qed.

Lemma chain_weaken p q raw n : p <= q -> chain q raw n -> chain p raw n.
Proof.
  revert p q; induction raw as [|[[|] b] r IH]; intros p q Hpq; cbn [chain].
  - lia.
  - apply IH; exact Hpq.
  - intros [H1 H2]. split; [lia|exact H2].
Qed.

Lemma read_offsets_at regs bs : forall c,
  map (fun p => le_val (take 4 (drop (pos_start p) bs)))
      (filter (fun p => negb (pos_is_fixed p)) (positions regs c))
  = raw_offs (raw_at regs c bs).
Proof.
  induction regs as [|[[|] l] regs IH]; intros c;
    cbn [positions filter pos_is_fixed fst snd negb map raw_at raw_offs pos_start].
  - reflexivity.
  - apply IH.
  - rewrite IH. reflexivity.
Qed.

Lemma place_fill regs bs : forall c,
  place (positions regs c) (var_slices (raw_offs (raw_at regs c bs)) bs) bs
  = map snd (fill_parts bs (raw_at regs c bs)).
Proof.
  induction regs as [|[[|] l] regs IH]; intros c;
    cbn [positions place pos_is_fixed pos_start pos_width fst snd raw_at raw_offs fill_parts map
         var_slices].
  - reflexivity.
  - rewrite IH. reflexivity.
  - rewrite IH. reflexivity.
Qed.

Lemma split_raw regs bs :
  SplitSpec.split regs bs =
  if layout_ok regs bs then Some (map snd (fill_parts bs (raw_at regs 0 bs))) else None.
Proof. unfold SplitSpec.split, read_offsets. rewrite read_offsets_at, place_fill. reflexivity. Qed.

Lemma chain_iff raw n : forall prev,
  chain prev raw n <->
  prev <= hd n (raw_offs raw) /\ nondecreasing (raw_offs raw) = true
  /\ forallb (fun x => x <=? n) (raw_offs raw) = true.
Proof.
  induction raw as [|[[|] w] r IH]; intros prev; cbn [chain raw_offs].
  - cbn [hd nondecreasing forallb]. tauto.
  - apply IH.
  - rewrite IH. cbn [hd forallb].
    change (nondecreasing (le_val w :: raw_offs r))
      with (match raw_offs r with
            | [] => true
            | b :: _ => (le_val w <=? b) && nondecreasing (raw_offs r)
            end).
    destruct (raw_offs r) as [|b t]; cbn [hd nondecreasing forallb];
      rewrite ?andb_true_iff, ?N.leb_le; lia.
Qed.

(** The conditions of the property text: the fixed portion fits, the offsets are in order and
    inside the input, and the first of them (the end of the input if there is none) is the size
    of the fixed portion. *)
Lemma layout_ok_chain regs bs :
  layout_ok regs bs = true <->
  fixed_end regs <= len bs /\ chain 0 (raw_at regs 0 bs) (len bs)
  /\ hd (len bs) (raw_offs (raw_at regs 0 bs)) = fixed_end regs.
Proof.
  unfold layout_ok, read_offsets. rewrite read_offsets_at, chain_iff.
  destruct (raw_offs (raw_at regs 0 bs)) as [|o t]; cbn [hd nondecreasing forallb];
    rewrite ?andb_true_iff, ?N.leb_le, ?N.eqb_eq; lia.
Qed.

Lemma fill_fixed_len bs regs : forall c,
  c + fixed_end regs <= len bs ->
  Forall2 (fun (r : bool * N) (s : bytes) => fst r = true -> len s = snd r)
          regs (map snd (fill_parts bs (raw_at regs c bs))).
Proof.
  induction regs as [|[[|] l] regs IH]; intros c Hc; rewrite ?fixed_end_cons in Hc;
    cbn [raw_at fill_parts map fst snd reg_width] in *; constructor;
    try (apply IH; lia); cbn [fst snd]; [|discriminate].
  intros _. apply len_take. rewrite len_drop. lia.
Qed.

(** Re-assembling the cut gives back the input: the fixed portion from [c] on, and the variable
    portion from the first offset on.  Well-formedness of the bytes makes an offset word the
    encoding of its own value. *)
Lemma layout_sound bs : wfb bs -> forall regs c prev,
  c + fixed_end regs <= len bs -> chain prev (raw_at regs c bs) (len bs) ->
  let parts := fill_parts bs (raw_at regs c bs) in
  let nx := hd (len bs) (raw_offs (raw_at regs c bs)) in
  drop c bs = assemble_fixed nx parts ++ drop (c + fixed_end regs) bs /\
  var_concat parts = drop nx bs /\
  offsets_fit nx parts /\
  fixed_size parts = fixed_end regs.
Proof.
  intros Hw. induction regs as [|[[|] l] regs IH]; intros c prev Hc Hch; cbv zeta;
    rewrite ?fixed_end_cons in *;
    cbn [raw_at raw_offs fill_parts chain hd reg_width fst snd assemble_fixed offsets_fit] in *.
  - rewrite drop_all, N.add_0_r. repeat split.
  - destruct (IH (c + l) prev) as (I1 & I2 & I3 & I4); [lia|exact Hch|].
    rewrite fixed_size_true, <- app_assoc, N.add_assoc, <- I1, I4, len_take by (rewrite len_drop; lia).
    repeat split; auto. apply drop_split.
  - unfold BYTES_PER_LENGTH_OFFSET in *. set (w := take 4 (drop c bs)) in *.
    destruct Hch as [_ Hch]. destruct (chain_bounds _ _ _ Hch) as [B1 B2].
    destruct (IH (c + 4) (le_val w)) as (I1 & I2 & I3 & I4); [lia|exact Hch|].
    assert (len w = 4) as Hl by (apply len_take; rewrite len_drop; lia).
    destruct (encode_length_le_val w) as [E1 E2];
      [unfold len in Hl; lia|apply wfb_take, wfb_drop, Hw|].
    set (nx := hd (len bs) (raw_offs (raw_at regs (c + 4) bs))) in *.
    rewrite var_concat_false, fixed_size_false, len_take by (rewrite len_drop; lia).
    replace (le_val w + (nx - le_val w)) with nx by lia.
    rewrite E1, <- app_assoc, N.add_assoc, <- I1, I2, I4.
    repeat split; auto.
    + apply drop_split.
    + replace nx with (le_val w + (nx - le_val w)) at 2 by lia. symmetry. apply drop_split.
Qed.

Lemma split_sound regs bs slices :
  wfb bs -> SplitSpec.split regs bs = Some slices -> Tiles regs bs slices.
Proof.
  intros Hw. rewrite split_raw. destruct (layout_ok regs bs) eqn:L; [|discriminate].
  intros [= <-]. apply layout_ok_chain in L as (Hfe & Hc & Hn).
  destruct (layout_sound bs Hw regs 0 0 Hfe Hc) as (L1 & L2 & L3 & L4). rewrite Hn in L1, L2, L3.
  set (parts := fill_parts bs (raw_at regs 0 bs)) in *.
  assert (map fst parts = map fst regs) as Hfst
    by (unfold parts; rewrite fill_parts_fst; apply raw_at_fst).
  unfold Tiles. rewrite <- Hfst, combine_fst_snd, L4. repeat split.
  - rewrite map_length, <- (map_length fst parts), Hfst. apply map_length.
  - apply fill_fixed_len. exact Hfe.
  - exact L3.
  - unfold assemble. rewrite L2. exact L1.
Qed.

(** What [raw_at] cuts out of [assemble_fixed off parts] (the converse direction starts from here). *)
Fixpoint raw_of (off : N) (parts : list part) : list part :=
  match parts with
  | [] => []
  | (true, b) :: r => (true, b) :: raw_of off r
  | (false, b) :: r => (false, encode_length off) :: raw_of (off + len b) r
  end.

Lemma fixed_end_fixed_size (regs : list (bool * N)) (parts : list part) :
  map fst regs = map fst parts ->
  Forall2 (fun (r : bool * N) (p : part) => fst r = true -> len (snd p) = snd r) regs parts ->
  fixed_end regs = fixed_size parts.
Proof.
  intros Hf HF; revert Hf; induction HF as [|[f l] [g b] rs ps H _ IH]; [reflexivity|].
  cbn [map fst snd] in *. intros [= -> Hf]. rewrite fixed_end_cons, IH by exact Hf.
  destruct g; [rewrite <- H|]; reflexivity.
Qed.

Lemma raw_at_raw_of (regs : list (bool * N)) (parts : list part) bs :
  map fst regs = map fst parts ->
  Forall2 (fun (r : bool * N) (p : part) => fst r = true -> len (snd p) = snd r) regs parts ->
  forall c off rest,
  drop c bs = assemble_fixed off parts ++ rest -> raw_at regs c bs = raw_of off parts.
Proof.
  intros Hf HF; revert Hf; induction HF as [|[f l] [g b] rs ps H _ IH]; [reflexivity|].
  cbn [map fst snd] in *. intros [= -> Hf] c off rest Hd.
  destruct g; cbn [raw_at raw_of assemble_fixed reg_width fst snd] in *;
    rewrite <- app_assoc in Hd.
  - rewrite <- H, Hd, take_app_exact by reflexivity. f_equal.
    apply (IH Hf _ off rest). rewrite <- drop_drop, Hd. apply drop_app_exact.
  - unfold BYTES_PER_LENGTH_OFFSET. rewrite Hd, <- (encode_length_len off), take_app_exact. f_equal.
    apply (IH Hf _ _ rest). rewrite <- drop_drop, Hd. apply drop_app_exact.
Qed.

Lemma raw_offs_raw_of off parts :
  offsets_fit off parts -> raw_offs (raw_of off parts) = offsets_of off parts.
Proof.
  revert off; induction parts as [|[[|] b] r IH]; intros off H;
    cbn [raw_of raw_offs offsets_of offsets_fit] in *.
  - reflexivity.
  - apply IH, H.
  - rewrite le_val_encode_length, IH by apply H. reflexivity.
Qed.

Lemma hd_offsets_of off parts : hd (off + len (var_concat parts)) (offsets_of off parts) = off.
Proof.
  pose proof (offsets_of_head off parts) as H. destruct (offsets_of off parts); cbn [hd]; [|exact H].
  rewrite H, len_nil. apply N.add_0_r.
Qed.

Lemma chain_raw_of off parts : forall prev n,
  offsets_fit off parts -> prev <= off -> off + len (var_concat parts) <= n ->
  chain prev (raw_of off parts) n.
Proof.
  revert off; induction parts as [|[[|] b] r IH]; intros off prev n H Hp Hn;
    cbn [raw_of chain offsets_fit] in *.
  - lia.
  - rewrite var_concat_true in Hn. apply IH; assumption.
  - destruct H as [H1 H2]. rewrite var_concat_false, len_app in Hn.
    rewrite le_val_encode_length by exact H1. split; [exact Hp|].
    apply IH; [exact H2|lia|lia].
Qed.

Lemma fill_parts_raw_of rest : forall pre,
  offsets_fit (len pre) rest ->
  fill_parts (pre ++ var_concat rest) (raw_of (len pre) rest) = rest.
Proof.
  induction rest as [|[[|] b] r IH]; intros pre Hf; cbn [raw_of fill_parts offsets_fit] in *.
  - reflexivity.
  - rewrite var_concat_true, (IH pre Hf). reflexivity.
  - destruct Hf as [Hf1 Hf2]. rewrite var_concat_false, app_assoc, <- len_app in *.
    rewrite (IH (pre ++ b) Hf2), le_val_encode_length, raw_offs_raw_of by assumption.
    rewrite (len_app (pre ++ b)), hd_offsets_of, len_app, N.add_comm, N.add_sub.
    rewrite <- !app_assoc, drop_app_exact, take_app_exact. reflexivity.
Qed.

Lemma split_assemble (parts : list part) (regs : list (bool * N)) :
  map fst regs = map fst parts ->
  Forall2 (fun (r : bool * N) (p : part) => fst r = true -> len (snd p) = snd r) regs parts ->
  offsets_fit (fixed_size parts) parts ->
  SplitSpec.split regs (assemble (fixed_size parts) parts) = Some (map snd parts).
Proof.
  intros Hf HF Hfit. set (nf := fixed_size parts) in *. set (bs := assemble nf parts).
  assert (len bs = nf + len (var_concat parts)) as Hl by apply assemble_len.
  assert (raw_at regs 0 bs = raw_of nf parts) as Hraw
    by (apply (raw_at_raw_of regs parts bs Hf HF 0 nf (var_concat parts)), drop_0).
  rewrite split_raw, Hraw, (proj2 (layout_ok_chain regs bs)).
  - do 2 f_equal. unfold nf. rewrite <- (asm_fixed_len nf parts).
    apply fill_parts_raw_of. rewrite asm_fixed_len. exact Hfit.
  - rewrite Hraw, (fixed_end_fixed_size regs parts Hf HF), raw_offs_raw_of, Hl by exact Hfit.
    split; [lia|]. split; [apply chain_raw_of; [exact Hfit|apply N.le_0_l|lia]|apply hd_offsets_of].
Qed.

Lemma split_complete regs bs slices : Tiles regs bs slices -> SplitSpec.split regs bs = Some slices.
Proof.
  unfold Tiles. cbv zeta. intros (HL & HF & Hfit & ->).
  set (parts := combine (map fst regs) slices) in *.
  assert (map fst parts = map fst regs) as Hfst
    by (apply map_fst_combine'; rewrite map_length; exact HL).
  rewrite <- (map_snd_combine' (map fst regs) slices) by (rewrite map_length; exact HL).
  apply split_assemble; [symmetry; exact Hfst| |exact Hfit].
  clear -HF. induction HF; cbn [map combine]; constructor; auto.
Qed.

(** ** A run of the builder

    [runs_to bs r P x]: the computation [r] returns [x] exactly when [P] holds, and otherwise
    reports an error, as long as positions inside [bs] fit in a [usize].  Nothing else is said
    about an input longer than that (no slice is). *)
Definition runs_to {A} (bs : bytes) (r : outcome A) (P : Prop) (x : A) : Prop :=
  match r with
  | Ok a => P /\ a = x
  | Err => P -> usize_max < len bs
  | Panic => usize_max < len bs
  end.

Lemma runs_bind {A B} bs (r : outcome A) P x (f : A -> outcome B) Q y :
  runs_to bs r P x -> (P -> runs_to bs (f x) Q y) -> runs_to bs (bind r f) (P /\ Q) y.
Proof.
  destruct r as [a| |]; cbn [bind runs_to]; [|tauto..].
  intros [HP ->] H. specialize (H HP). destruct (f x); cbn [runs_to] in *; tauto.
Qed.

Lemma runs_iff {A} bs (r : outcome A) P P' x x' :
  runs_to bs r P x -> (P <-> P') -> x = x' -> runs_to bs r P' x'.
Proof. intros H HP <-. destruct r; cbn [runs_to] in *; tauto. Qed.

Lemma runs_if {A} bs (b : bool) P (x : A) : reflect P b -> runs_to bs (if b then Ok x else Err) P x.
Proof. intros [H|H]; cbn [runs_to]; tauto. Qed.

(** The offset of the last variable item registered so far. *)
Definition prev_of (os : list boffset) : N :=
  match last_offset os with Some p => p | None => 0 end.

Lemma prev_of_snoc os x : prev_of (os ++ [x]) = o_offset x.
Proof. unfold prev_of, last_offset. rewrite rev_app_distr. reflexivity. Qed.

Lemma register_spec bs st f l :
  b_index st <= len bs ->
  let c := b_index st in
  let o := le_val (take 4 (drop c bs)) in
  runs_to bs (register bs st f l)
    (c + reg_width (f, l) <= len bs /\ (if f then True else prev_of (b_offsets st) <= o <= len bs))
    {| b_items := b_items st ++ [if f then take l (drop c bs) else []];
       b_offsets := b_offsets st ++
         (if f then [] else [{| o_position := length (b_items st); o_offset := o |}]);
       b_index := c + reg_width (f, l) |}.
Proof.
  intros Hi. unfold register, reg_width, BYTES_PER_LENGTH_OFFSET. destruct f; cbn [fst snd].
  - unfold checked_add, get_range.
    destruct (b_index st + l <=? usize_max) eqn:E1; cbn [ok_or bind runs_to]; [|lia].
    destruct ((b_index st <=? b_index st + l) && (b_index st + l <=? len bs)) eqn:E2;
      cbn [ok_or bind runs_to]; [|lia].
    rewrite app_nil_r, N.add_comm, N.add_sub, N.add_comm. split; [split; [lia|exact I]|reflexivity].
  - unfold index_from, get_from, usize_add, sanitize_offset, prev_of.
    replace (b_index st <=? len bs) with true by lia. cbn [bind is_some_and is_none andb].
    rewrite andb_false_r, read_offset_eq, len_drop.
    destruct (4 <=? len bs - b_index st) eqn:E1; cbn [bind runs_to]; [|lia].
    destruct (len bs <? _) eqn:E2; cbn [bind runs_to]; [lia|].
    destruct (last_offset (b_offsets st)) as [p|]; cbn [is_some_and];
      [destruct (_ <? p) eqn:E3; cbn [bind runs_to]; [lia|]|];
      (destruct (b_index st + 4 <=? usize_max) eqn:E4; cbn [bind runs_to];
       [split; [lia|reflexivity]|lia]).
Qed.

(** After the registrations and before [finalize]: [b_items] holds the fixed slices and an empty placeholder for every
    variable item ([ph]), [b_offsets] the positions and offsets of the variable ones ([mk_offs]). *)
Definition ph (p : part) : bytes := if fst p then snd p else [].

Fixpoint mk_offs (pos : nat) (raw : list part) : list boffset :=
  match raw with
  | [] => []
  | (true, _) :: r => mk_offs (S pos) r
  | (false, w) :: r => {| o_position := pos; o_offset := le_val w |} :: mk_offs (S pos) r
  end.

Lemma mk_offs_offs raw : forall pos, map o_offset (mk_offs pos raw) = raw_offs raw.
Proof.
  induction raw as [|[[|] w] r IH]; intros pos; cbn [mk_offs raw_offs map o_offset];
    [|rewrite IH..]; reflexivity.
Qed.

Lemma register_all_spec bs regs : forall st,
  b_index st <= len bs -> prev_of (b_offsets st) <= len bs ->
  let raw := raw_at regs (b_index st) bs in
  runs_to bs (register_all bs st regs)
    (b_index st + fixed_end regs <= len bs /\ chain (prev_of (b_offsets st)) raw (len bs))
    {| b_items := b_items st ++ map ph raw;
       b_offsets := b_offsets st ++ mk_offs (length (b_items st)) raw;
       b_index := b_index st + fixed_end regs |}.
Proof.
  induction regs as [|[f l] regs IH]; intros st Hi Hp; cbv zeta.
  - unfold fixed_end. cbn [register_all raw_at map mk_offs chain runs_to sumN].
    rewrite !app_nil_r, N.add_0_r. destruct st. split; [split; assumption|reflexivity].
  - rewrite fixed_end_cons, N.add_assoc. cbn [register_all raw_at fst].
    (* a variable item's offset is checked against [len bs] on the spot; [chain] has it from
       the offsets that follow *)
    pose proof (chain_bounds (le_val (take 4 (drop (b_index st) bs)))
                             (raw_at regs (b_index st + 4) bs) (len bs)) as Hb.
    eapply runs_iff.
    + eapply runs_bind; [apply register_spec, Hi|].
      intros [H1 H2]. apply IH; cbn [b_index b_offsets]; [exact H1|].
      destruct f; [rewrite app_nil_r; exact Hp|rewrite prev_of_snoc; apply H2].
    + cbn [b_index b_offsets]. destruct f; cbn [chain reg_width fst snd] in *;
        rewrite ?app_nil_r, ?prev_of_snoc; cbn [o_offset];
        unfold BYTES_PER_LENGTH_OFFSET in *; intuition lia.
    + cbn [b_index b_offsets b_items]. rewrite app_length, Nat.add_1_r, <- !app_assoc.
      destruct f; reflexivity.
Qed.

(** ** The fill phase ([finalize])

    [finalize] cuts between neighbouring offsets in a [windows(2)] loop and treats the last
    offset apart; [fill_all] is the same computation with every offset treated alike: cut up
    to the next offset, or to the end of the input. *)
Fixpoint fill_all (bs : bytes) (os : list boffset) (items : list bytes) : outcome (list bytes) :=
  match os with
  | [] => Ok items
  | a :: r =>
      do s <- index_range bs (o_offset a) (hd (len bs) (map o_offset r));
      do items' <- set_nth items (o_position a) s;
      fill_all bs r items'
  end.

Lemma index_from_range bs a : index_from bs a = index_range bs a (len bs).
Proof.
  unfold index_from, index_range, get_from, get_range. rewrite N.leb_refl, andb_true_r.
  destruct (a <=? len bs); [|reflexivity]. rewrite <- len_drop, take_all. reflexivity.
Qed.

Lemma finalize_fill bs os : forall items,
  (do items' <- fill_pairs bs os items;
   match rev os with
   | last :: _ => do s <- index_from bs (o_offset last); set_nth items' (o_position last) s
   | [] => Ok items'
   end) = fill_all bs os items.
Proof.
  induction os as [|a [|b t] IH]; intros items.
  - reflexivity.
  - cbn [fill_pairs rev app bind fill_all map hd]. rewrite index_from_range.
    destruct (index_range _ _ _); [|reflexivity..]. cbn [bind].
    destruct (set_nth _ _ _); reflexivity.
  - change (fill_pairs bs (a :: b :: t) items)
      with (do s <- index_range bs (o_offset a) (o_offset b);
            do items' <- set_nth items (o_position a) s; fill_pairs bs (b :: t) items').
    change (fill_all bs (a :: b :: t) items)
      with (do s <- index_range bs (o_offset a) (o_offset b);
            do items' <- set_nth items (o_position a) s; fill_all bs (b :: t) items').
    destruct (index_range bs (o_offset a) (o_offset b)); [|reflexivity..]. cbn [bind].
    destruct (set_nth items (o_position a) _) as [items1| |]; [|reflexivity..]. cbn [bind].
    rewrite <- IH. change (rev (a :: b :: t)) with (rev (b :: t) ++ [a]).
    destruct (rev (b :: t)) eqn:E; [|reflexivity].
    apply (f_equal (@length _)) in E. rewrite rev_length in E. discriminate.
Qed.

Lemma set_nth_app {A} (done : list A) x r s :
  set_nth (done ++ x :: r) (length done) s = Ok (done ++ s :: r).
Proof.
  induction done as [|d done IH]; cbn [app length set_nth]; [reflexivity|].
  rewrite IH. reflexivity.
Qed.

Lemma fill_eq bs raw : forall done prev,
  chain prev raw (len bs) ->
  fill_all bs (mk_offs (length done) raw) (done ++ map ph raw) =
  Ok (done ++ map snd (fill_parts bs raw)).
Proof.
  induction raw as [|[[|] w] r IH]; intros done prev Hc;
    cbn [mk_offs map fill_parts chain fill_all ph fst snd o_offset o_position] in *.
  - reflexivity.
  - specialize (IH (done ++ [w]) prev Hc).
    rewrite app_length, Nat.add_1_r, <- !app_assoc in IH. exact IH.
  - destruct Hc as [_ Hc]. destruct (chain_bounds _ _ _ Hc) as [B1 B2].
    rewrite mk_offs_offs. unfold index_range.
    rewrite (proj2 (get_range_some bs _ _ _) (conj B1 (conj B2 eq_refl))).
    cbn [bind]. rewrite set_nth_app. cbn [bind].
    specialize (IH (done ++ [take (hd (len bs) (raw_offs r) - le_val w) (drop (le_val w) bs)]) _ Hc).
    rewrite app_length, Nat.add_1_r, <- !app_assoc in IH. exact IH.
Qed.

Lemma finalize_spec bs st raw prev :
  b_offsets st = mk_offs 0 raw -> b_items st = map ph raw -> chain prev raw (len bs) ->
  finalize bs st =
  if hd (len bs) (raw_offs raw) =? b_index st then Ok (map snd (fill_parts bs raw)) else Err.
Proof.
  intros HO HI Hc. unfold finalize. rewrite HO, HI, <- (mk_offs_offs raw 0).
  pose proof (fill_eq bs raw [] prev Hc) as HF. cbn [length app] in HF.
  destruct (mk_offs 0 raw) as [|first t]; cbn [map hd].
  - injection HF as <-. rewrite N.eqb_sym. destruct (len bs =? b_index st); reflexivity.
  - rewrite finalize_fill, HF.
    destruct (o_offset first <? b_index st) eqn:E1, (b_index st <? o_offset first) eqn:E2,
      (o_offset first =? b_index st) eqn:E3; try reflexivity; lia.
Qed.

Theorem builder_build_spec regs bs :
  runs_to bs (builder_build regs bs) (layout_ok regs bs = true)
    (map snd (fill_parts bs (raw_at regs 0 bs))).
Proof.
  unfold builder_build.
  eapply runs_iff; [eapply runs_bind| |reflexivity].
  - apply (register_all_spec bs regs builder_new); apply N.le_0_l.
  - cbn [builder_new b_items b_offsets b_index app length]. intros [_ Hc].
    erewrite finalize_spec by (reflexivity || exact Hc). apply runs_if, N.eqb_spec.
  - rewrite layout_ok_chain. cbn [builder_new b_index b_offsets]. change (prev_of []) with 0.
    rewrite N.add_0_l. tauto.
Qed.

Theorem builder_build_split regs bs :
  len bs <= usize_max ->
  builder_build regs bs = match SplitSpec.split regs bs with Some s => Ok s | None => Err end.
Proof.
  intros Hm. pose proof (builder_build_spec regs bs) as H. rewrite split_raw.
  destruct (builder_build regs bs), (layout_ok regs bs); cbn [runs_to] in H;
    try reflexivity; try lia; destruct H as [H ->]; (reflexivity || discriminate).
Qed.

Lemma builder_build_length regs bs items :
  builder_build regs bs = Ok items -> length items = length regs.
Proof.
  intros H. pose proof (builder_build_spec regs bs) as S. rewrite H in S. destruct S as [_ ->].
  rewrite map_length, <- (map_length fst), fill_parts_fst, raw_at_fst. apply map_length.
Qed.

Theorem builder_build_tiles regs bs slices :
  wfb bs -> len bs <= usize_max ->
  (builder_build regs bs = Ok slices <-> Tiles regs bs slices).
Proof.
  intros Hw Hm. rewrite builder_build_split by exact Hm. split.
  - intros H. apply split_sound; [exact Hw|]. destruct (SplitSpec.split regs bs); congruence.
  - intros H. rewrite (split_complete _ _ _ H). reflexivity.
Qed.

Theorem builder_build_no_panic regs bs : len bs <= usize_max -> builder_build regs bs <> Panic.
Proof.
  intros Hm. rewrite builder_build_split by exact Hm. destruct (SplitSpec.split regs bs); discriminate.
Qed.

Lemma builder_build_assemble (parts : list part) (regs : list (bool * N)) :
  map fst regs = map fst parts ->
  Forall2 (fun (r : bool * N) (p : part) => fst r = true -> len (snd p) = snd r) regs parts ->
  offsets_fit (fixed_size parts) parts ->
  wfb (assemble (fixed_size parts) parts) -> len (assemble (fixed_size parts) parts) <= usize_max ->
  builder_build regs (assemble (fixed_size parts) parts) = Ok (map snd parts).
Proof.
  intros Hf HF Hfit _ Hm. rewrite builder_build_split, split_assemble by assumption. reflexivity.
Qed.

Lemma tiles_offsets regs bs slices : Tiles regs bs slices ->
  let parts := combine (map fst regs) slices in
  let offs := offsets_of (fixed_size parts) parts in
  (forall o, In o offs -> fixed_size parts <= o /\ o <= len bs) /\
  (match offs with [] => len bs = fixed_size parts | o :: _ => o = fixed_size parts end) /\
  (forall i j, (i <= j)%nat -> (j < length offs)%nat -> nth i offs 0 <= nth j offs 0).
Proof.
  unfold Tiles. cbv zeta. intros (_ & _ & _ & ->).
  set (parts := combine (map fst regs) slices). set (nf := fixed_size parts).
  rewrite assemble_len. fold nf. split; [|split].
  - intros o Ho. apply offsets_of_bound in Ho. exact Ho.
  - pose proof (offsets_of_head nf parts) as Hh.
    destruct (offsets_of nf parts) as [|o t]; [|exact Hh]. rewrite Hh. apply N.add_0_r.
  - intros i j. apply offsets_of_sorted.
Qed.
