(** * What the derive macros accept and which schema they implement (C08). *)
From SSZ Require Import Base BaseFacts Types Derive.
From Coq Require Import ZArith ZifyN ZifyNat ZifyBool.
Open Scope N_scope.

(** Definitions without an SSZ meaning, and the macro's other documented shape requirements. *)
Definition rejected (d : defn) : Prop :=
  match d with
  | DStruct enum_attr b named fs =>
      enum_attr = true \/ attrs_ok fs = false \/ b = SOther \/
      (b = SContainer /\ named = false /\ fs <> []) \/
      (b = STransparent /\ length (filter (fun f => negb (f_skip_de f)) fs) <> 1%nat)
  | DEnum struct_attr b vs =>
      struct_attr = true \/ b = EAbsent \/ b = EOther \/
      (b = EUnion /\ (Exists (fun v => length v <> 1%nat) vs \/ vs = [] \/ (128 < length vs)%nat)) \/
      (b = ETag /\ (Exists (fun v : list ty => v <> []) vs \/ vs = [] \/ (128 < length vs)%nat)) \/
      (b = ETransparent /\ Exists (fun v => length v <> 1%nat) vs)
  end.

Lemma selectors_ok_iff n : selectors_ok n = true <-> (1 <= n <= 128)%nat.
Proof. unfold selectors_ok. lia. Qed.

Lemma selectors_ok_false_iff n : selectors_ok n = false <-> (n = 0 \/ 128 < n)%nat.
Proof. unfold selectors_ok. lia. Qed.

Lemma selectors_ok_length_false {A} (l : list A) :
  selectors_ok (length l) = false <-> l = [] \/ (128 < length l)%nat.
Proof. now rewrite selectors_ok_false_iff, length_zero_iff_nil. Qed.

Lemma all_some_one_field_some vs ts :
  all_some (map one_field vs) = Some ts <-> vs = map (fun t => [t]) ts.
Proof.
  split.
  - revert ts. induction vs as [|[|t [|]] vs IH]; cbn [map one_field all_some]; intros ts H;
      try discriminate H; [now injection H as <-|].
    destruct (all_some _); [|discriminate H]. injection H as <-. cbn [map]. f_equal. now apply IH.
  - intros ->. induction ts as [|t ts IH]; cbn [map one_field all_some]; [reflexivity|]. now rewrite IH.
Qed.

Lemma all_some_one_field_length vs ts :
  all_some (map one_field vs) = Some ts -> length ts = length vs.
Proof. intros ->%all_some_one_field_some. now rewrite map_length. Qed.

Lemma all_some_one_field_none vs :
  all_some (map one_field vs) = None <-> Exists (fun v => length v <> 1%nat) vs.
Proof.
  split.
  - induction vs as [|[|t [|]] vs IH]; cbn [map one_field all_some]; intros H;
      try discriminate H; try (now left).
    right. destruct (all_some _); [discriminate H|auto].
  - intros H. destruct (all_some _) as [ts|] eqn:E; [|reflexivity].
    apply all_some_one_field_some in E. subst vs.
    apply Exists_exists in H as (v & (t & <- & _)%in_map_iff & H). now elim H.
Qed.

Lemma tag_check_true vs :
  forallb (fun v : list ty => match v with [] => true | _ => false end) vs = true <->
  Forall (fun v : list ty => v = []) vs.
Proof.
  rewrite forallb_forall, Forall_forall.
  split; intros H v Hv; specialize (H v Hv); destruct v; congruence.
Qed.

Lemma tag_check_false vs :
  forallb (fun v : list ty => match v with [] => true | _ => false end) vs = false <->
  Exists (fun v : list ty => v <> []) vs.
Proof.
  induction vs as [|[|t v] vs IH]; cbn [forallb andb]; rewrite ?Exists_cons, ?Exists_nil.
  - split; [discriminate|tauto].
  - rewrite IH. tauto.
  - split; [left; discriminate|reflexivity].
Qed.

Lemma derive_none_cases d :
  derive d = None <-> derive_enc d = None \/ derive_dec d = None.
Proof. unfold derive. destruct (derive_enc d), (derive_dec d); intuition discriminate. Qed.

(** When the macro fails, behaviour by behaviour, the attribute of the other kind being absent. *)
Lemma struct_none b named fs :
  derive (DStruct false b named fs) = None <->
  attrs_ok fs = false \/
  match b with
  | SContainer => named = false /\ fs <> []
  | STransparent => length (filter (fun f => negb (f_skip_de f)) fs) <> 1%nat
  | SOther => True
  end.
Proof.
  rewrite derive_none_cases. cbn [derive_enc derive_dec].
  destruct (attrs_ok fs); cbn [negb]; [|now (split; left)]. destruct b.
  - (* the Decode side looks at all fields, the Encode side at the live ones, which are among them *)
    destruct named; cbn [negb andb]; [intuition discriminate|].
    destruct fs as [|f fs]; [cbn [filter negb]; intuition discriminate|].
    split; [intros _|intros _; right; reflexivity]. right. split; [reflexivity|discriminate].
  - destruct (filter _ fs) as [|x [|y l]]; cbn [length]; intuition (discriminate || lia).
  - tauto.
Qed.

Lemma enum_none b vs :
  derive (DEnum false b vs) = None <->
  match b with
  | EUnion => Exists (fun v => length v <> 1%nat) vs \/ vs = [] \/ (128 < length vs)%nat
  | ETag => Exists (fun v : list ty => v <> []) vs \/ vs = [] \/ (128 < length vs)%nat
  | ETransparent => Exists (fun v => length v <> 1%nat) vs
  | EAbsent | EOther => True
  end.
Proof.
  rewrite derive_none_cases. cbn [derive_dec].
  destruct b; cbn [derive_enc]; try tauto;
    rewrite <- ?selectors_ok_length_false, <- ?all_some_one_field_none, <- ?tag_check_false.
  - destruct (all_some _) as [ts|] eqn:E; [|tauto]. rewrite (all_some_one_field_length _ _ E).
    destruct (selectors_ok _); intuition discriminate.
  - destruct (all_some _); intuition discriminate.
  - destruct (forallb _ vs), (selectors_ok _); intuition discriminate.
Qed.

(** [rejected] lists the behaviours as a disjunction of equations; the two lemmas above go by cases. *)
Lemma sbeh_cases b (PC PT : Prop) :
  match b with SContainer => PC | STransparent => PT | SOther => True end <->
  b = SOther \/ (b = SContainer /\ PC) \/ (b = STransparent /\ PT).
Proof. destruct b; intuition discriminate. Qed.

Lemma ebeh_cases b (PU PG PT : Prop) :
  match b with EUnion => PU | ETag => PG | ETransparent => PT | EAbsent | EOther => True end <->
  b = EAbsent \/ b = EOther \/ (b = EUnion /\ PU) \/ (b = ETag /\ PG) \/ (b = ETransparent /\ PT).
Proof. destruct b; intuition discriminate. Qed.

Theorem derive_none_iff_rejected d : derive d = None <-> rejected d.
Proof.
  destruct d as [[|] b named fs | [|] b vs]; cbn [rejected]; try (split; [now left|reflexivity]).
  - rewrite struct_none, sbeh_cases. split; [now right|now intros [|]].
  - rewrite enum_none, ebeh_cases. split; [now right|now intros [|]].
Qed.

Lemma derive_some_inv d e r :
  derive d = Some (e, r) -> derive_enc d = Some e /\ derive_dec d = Some r.
Proof. unfold derive. destruct (derive_enc d), (derive_dec d); now intros [= -> ->]. Qed.

Theorem derive_container_schema named fs e r :
  derive (DStruct false SContainer named fs) = Some (e, r) ->
  e = TContainer true (map field_schema (filter (fun f => negb (f_skip_ser f)) fs)) /\
  r = TContainer true (map field_schema (filter (fun f => negb (f_skip_de f)) fs)).
Proof.
  intros [He Hr]%derive_some_inv. cbn [derive_enc derive_dec] in He, Hr.
  destruct (negb (attrs_ok fs)); [discriminate|].
  destruct (negb named && _) in He; [discriminate|]. destruct (negb named && _) in Hr; [discriminate|].
  split; congruence.
Qed.

Theorem derive_container_symmetric named fs e r :
  derive (DStruct false SContainer named fs) = Some (e, r) ->
  (forall f, In f fs -> f_skip_ser f = f_skip_de f) -> e = r.
Proof.
  intros [-> ->]%derive_container_schema Hs. do 2 f_equal.
  apply filter_ext_in. intros a Ha. now rewrite (Hs a Ha).
Qed.

Theorem derive_transparent_schema named fs e r :
  derive (DStruct false STransparent named fs) = Some (e, r) ->
  exists f, filter (fun f => negb (f_skip_de f)) fs = [f] /\ e = TWrap (f_ty f) /\ r = TWrap (f_ty f).
Proof.
  intros [He Hr]%derive_some_inv. cbn [derive_enc derive_dec] in He, Hr.
  destruct (negb (attrs_ok fs)); [discriminate|].
  destruct (filter _ fs) as [|x [|y l]]; try discriminate.
  exists x. injection He as <-. injection Hr as <-. auto.
Qed.

Lemma derive_enum_inv b vs e r :
  derive (DEnum false b vs) = Some (e, r) -> derive_enc (DEnum false b vs) = Some e /\ r = e.
Proof. intros [He Hr]%derive_some_inv. cbn [derive_dec] in Hr. split; congruence. Qed.

Theorem derive_union_schema vs e r :
  derive (DEnum false EUnion vs) = Some (e, r) ->
  exists ts, map (fun t => [t]) ts = vs /\ e = TUnion ts /\ r = TUnion ts /\ (1 <= length ts <= 128)%nat.
Proof.
  intros [He ->]%derive_enum_inv. cbn [derive_enc] in He.
  destruct (all_some _) as [ts|] eqn:E; [|discriminate]. apply all_some_one_field_some in E.
  destruct (selectors_ok _) eqn:Es; [|discriminate]. apply selectors_ok_iff in Es.
  injection He as <-. eauto.
Qed.

Theorem derive_tag_schema vs e r :
  derive (DEnum false ETag vs) = Some (e, r) ->
  Forall (fun v : list ty => v = []) vs /\ e = TTag (length vs) /\ r = TTag (length vs) /\ (1 <= length vs <= 128)%nat.
Proof.
  intros [He ->]%derive_enum_inv. cbn [derive_enc] in He.
  destruct (forallb _ vs) eqn:E; [|discriminate]. apply tag_check_true in E.
  destruct (selectors_ok _) eqn:Es; [|discriminate]. apply selectors_ok_iff in Es.
  injection He as <-. auto.
Qed.

Theorem derive_trans_schema vs e r :
  derive (DEnum false ETransparent vs) = Some (e, r) ->
  exists ts, map (fun t => [t]) ts = vs /\ e = TTransEnum ts /\ r = TTransEnum ts.
Proof.
  intros [He ->]%derive_enum_inv. cbn [derive_enc] in He.
  destruct (all_some _) as [ts|] eqn:E; [|discriminate]. apply all_some_one_field_some in E.
  injection He as <-. eauto.
Qed.

Theorem union_selectors_are_indices n i :
  (i < n)%nat -> length (union_selectors n) = n /\ nth i (union_selectors n) 0%N = N.of_nat i.
Proof.
  intros Hi. unfold union_selectors. split; [now rewrite map_length, seq_length|].
  change 0%N with (N.of_nat 0). now rewrite map_nth, seq_nth.
Qed.
