(** * Facts about little-endian words, slicing, [chunks], the [outcome] monad and [mapM]. *)
From SSZ Require Import Base.
From Coq Require Import ZArith ZifyN ZifyNat ZifyBool.
Open Scope N_scope.
(* Division and modulo go to [lia] as their defining equations.  The line is in force in every file that requires
   this one, directly or not; it takes the place of ZifyBool's own hook ([elim_bool_cstr]), which no proof of the
   development needs and which every [lia] would otherwise pay for. *)
Ltac Zify.zify_post_hook ::= Z.div_mod_to_equations.

Lemma len_nil : len [] = 0. Proof. reflexivity. Qed.
Lemma len_cons x (l : bytes) : len (x :: l) = len l + 1.
Proof. unfold len. cbn [length]. lia. Qed.
Lemma len_app (a b : bytes) : len (a ++ b) = len a + len b.
Proof. unfold len. rewrite app_length. lia. Qed.

Lemma wfbb_wfb bs : wfbb bs = true <-> wfb bs.
Proof.
  unfold wfbb, wfb. rewrite forallb_forall, Forall_forall.
  split; intros H x Hx; specialize (H x Hx); lia.
Qed.

Lemma wfb_app a b : wfb (a ++ b) <-> wfb a /\ wfb b.
Proof. unfold wfb. apply Forall_app. Qed.

Lemma wfb_firstn_skipn n bs : wfb bs -> wfb (firstn n bs) /\ wfb (skipn n bs).
Proof. intros H. apply wfb_app. rewrite firstn_skipn. exact H. Qed.
Lemma wfb_firstn n bs : wfb bs -> wfb (firstn n bs).
Proof. apply wfb_firstn_skipn. Qed.
Lemma wfb_skipn n bs : wfb bs -> wfb (skipn n bs).
Proof. apply wfb_firstn_skipn. Qed.
Lemma wfb_take n bs : wfb bs -> wfb (take n bs).
Proof. apply wfb_firstn. Qed.
Lemma wfb_drop n bs : wfb bs -> wfb (drop n bs).
Proof. apply wfb_skipn. Qed.

Lemma le_bytes_length k n : length (le_bytes k n) = k.
Proof. revert n; induction k as [|k IH]; intros n; cbn [le_bytes length]; auto. Qed.

Lemma wfb_le_bytes k n : wfb (le_bytes k n).
Proof.
  revert n; induction k as [|k IH]; intros n; cbn [le_bytes]; [constructor|].
  constructor; [apply N.mod_lt; lia | apply IH].
Qed.

Lemma le_val_le_bytes k n : n < 256 ^ N.of_nat k -> le_val (le_bytes k n) = n.
Proof.
  revert n; induction k as [|k IH]; intros n Hn.
  - cbn in *. lia.
  - cbn [le_bytes le_val]. rewrite IH.
    + pose proof (N.div_mod n 256). lia.
    + rewrite Nat2N.inj_succ, N.pow_succ_r' in Hn.
      apply N.div_lt_upper_bound; lia.
Qed.

Lemma le_val_bound bs : wfb bs -> le_val bs < 256 ^ N.of_nat (length bs).
Proof.
  induction 1 as [|b bs Hb _ IH]; cbn [le_val length].
  - cbn. lia.
  - rewrite Nat2N.inj_succ, N.pow_succ_r'. nia.
Qed.

Lemma le_bytes_le_val bs : wfb bs -> le_bytes (length bs) (le_val bs) = bs.
Proof.
  induction 1 as [|b bs Hb _ IH]; cbn [le_val length le_bytes]; auto.
  f_equal.
  - replace (b + 256 * le_val bs) with (b + le_val bs * 256) by lia.
    rewrite N.mod_add by lia. apply N.mod_small; auto.
  - replace (b + 256 * le_val bs) with (le_val bs * 256 + b) by lia.
    rewrite N.div_add_l by lia. rewrite (N.div_small b 256) by auto.
    rewrite N.add_0_r. exact IH.
Qed.

Lemma le_bytes_inj k a b :
  a < 256 ^ N.of_nat k -> b < 256 ^ N.of_nat k -> le_bytes k a = le_bytes k b -> a = b.
Proof.
  intros Ha Hb H. rewrite <- (le_val_le_bytes k a Ha), <- (le_val_le_bytes k b Hb). now rewrite H.
Qed.

Lemma le_bytes_mod k n : le_bytes k (n mod 256 ^ N.of_nat k) = le_bytes k n.
Proof.
  revert n. induction k as [|k IH]; intro n; [reflexivity|].
  cbn [le_bytes].
  rewrite Nnat.Nat2N.inj_succ, N.pow_succ_r', N.mod_mul_r, (N.mul_comm 256) by (try apply N.pow_nonzero; discriminate).
  rewrite N.mod_add, N.mod_mod, N.div_add, (N.div_small (n mod 256)) by (try apply N.mod_lt; discriminate).
  f_equal. apply IH.
Qed.

Lemma take_drop n (bs : bytes) : take n bs ++ drop n bs = bs.
Proof. apply firstn_skipn. Qed.

Lemma len_take n bs : n <= len bs -> len (take n bs) = n.
Proof. unfold len, take. intros H. rewrite firstn_length. lia. Qed.
Lemma len_drop n bs : len (drop n bs) = len bs - n.
Proof. unfold len, drop. rewrite skipn_length. lia. Qed.

Lemma take_app_exact (a b : bytes) : take (len a) (a ++ b) = a.
Proof.
  unfold take, len. rewrite Nat2N.id.
  rewrite firstn_app, Nat.sub_diag, firstn_all. cbn. apply app_nil_r.
Qed.
Lemma drop_app_exact (a b : bytes) : drop (len a) (a ++ b) = b.
Proof.
  unfold drop, len. rewrite Nat2N.id.
  rewrite skipn_app, Nat.sub_diag, skipn_all. reflexivity.
Qed.

Lemma drop_0 (bs : bytes) : drop 0 bs = bs. Proof. reflexivity. Qed.
Lemma take_all (bs : bytes) : take (len bs) bs = bs.
Proof. unfold take, len. rewrite Nat2N.id. apply firstn_all. Qed.
Lemma drop_all (bs : bytes) : drop (len bs) bs = [].
Proof. unfold drop, len. rewrite Nat2N.id. apply skipn_all. Qed.

Lemma skipn_skipn' {A} (x y : nat) (l : list A) : skipn x (skipn y l) = skipn (y + x) l.
Proof.
  revert l; induction y as [|y IH]; intros l; cbn [skipn Nat.add]; [reflexivity|].
  destruct l as [|z l]; [destruct x; reflexivity|]. apply IH.
Qed.
Lemma drop_drop a b (bs : bytes) : drop a (drop b bs) = drop (b + a) bs.
Proof.
  unfold drop. rewrite skipn_skipn'. f_equal. lia.
Qed.

Lemma drop_split n (bs : bytes) k : drop k bs = take n (drop k bs) ++ drop (k + n) bs.
Proof. rewrite <- drop_drop. symmetry. apply take_drop. Qed.

Lemma get_range_some bs a b s :
  get_range bs a b = Some s <-> (a <= b /\ b <= len bs /\ s = take (b - a) (drop a bs)).
Proof.
  unfold get_range.
  destruct (a <=? b) eqn:E1; destruct (b <=? len bs) eqn:E2; cbn [andb];
    split; try discriminate; try (intros [? [? ?]]; lia).
  - intros [= <-]. repeat split; lia.
  - intros [_ [_ ->]]. reflexivity.
Qed.

Lemma get_from_some bs a s : get_from bs a = Some s <-> (a <= len bs /\ s = drop a bs).
Proof.
  unfold get_from. destruct (a <=? len bs) eqn:E; split; try discriminate.
  - intros [= <-]. split; [lia|reflexivity].
  - intros [_ ->]. reflexivity.
  - intros [? _]. lia.
Qed.

Lemma chunks_fuel_concat fuel n bs :
  (0 < n)%nat -> (length bs <= fuel)%nat -> concat (chunks_fuel fuel n bs) = bs.
Proof.
  intros Hn. revert bs. induction fuel as [|f IH]; intros bs Hl.
  - destruct bs; cbn in *; [reflexivity|lia].
  - destruct bs as [|b bs]; [reflexivity|].
    cbn [chunks_fuel concat]. rewrite IH.
    + apply firstn_skipn.
    + rewrite skipn_length. cbn [length] in *. lia.
Qed.
Lemma chunks_concat n bs : (0 < n)%nat -> concat (chunks n bs) = bs.
Proof. intros. apply chunks_fuel_concat; auto. Qed.

Lemma Ok_inj {A} (a b : A) : Ok a = Ok b -> a = b.
Proof. intro H. injection H as H. exact H. Qed.
Lemma Ok_inj_pair {A B} (a a' : A) (b b' : B) : Ok (a, b) = Ok (a', b') -> a = a' /\ b = b'.
Proof. intro H. injection H as H1 H2. split; assumption. Qed.
Lemma bind_ret {A} (o : outcome A) : (do x <- o; Ok x) = o.
Proof. destruct o; reflexivity. Qed.
Lemma bind_ok {A B} (o : outcome A) (f : A -> outcome B) y : bind o f = Ok y -> exists x, o = Ok x /\ f x = Ok y.
Proof. destruct o; cbn; intros H; try discriminate. eauto. Qed.
Lemma omap_id {A} (o : outcome A) : omap (fun x => x) o = o.
Proof. destruct o; reflexivity. Qed.
Lemma omap_omap {A B C} (f : A -> B) (g : B -> C) (o : outcome A) : omap g (omap f o) = omap (fun x => g (f x)) o.
Proof. destruct o; reflexivity. Qed.
Lemma omap_ok {A B} (f : A -> B) (o : outcome A) y : omap f o = Ok y -> exists x, o = Ok x /\ y = f x.
Proof. destruct o; cbn; intros H; try discriminate. injection H as <-. eauto. Qed.
Lemma omap_Err_inv {A B} (f : A -> B) o : omap f o = Err -> o = Err.
Proof. destruct o; [discriminate | reflexivity | discriminate]. Qed.
Lemma omap_no_panic {A B} (f : A -> B) (o : outcome A) : o <> Panic -> omap f o <> Panic.
Proof. destruct o; cbn; congruence. Qed.

Lemma mapM_app {A B} (g : A -> outcome B) l1 l2 :
  mapM g (l1 ++ l2) = do a <- mapM g l1; do b <- mapM g l2; Ok (a ++ b).
Proof.
  induction l1 as [|x r IH]; cbn [app mapM bind].
  - destruct (mapM g l2); reflexivity.
  - destruct (g x); cbn [bind]; try reflexivity. rewrite IH.
    destruct (mapM g r); cbn [bind]; try reflexivity. destruct (mapM g l2); reflexivity.
Qed.
Lemma mapM_length {A B} (g : A -> outcome B) l r : mapM g l = Ok r -> length r = length l.
Proof.
  revert r. induction l as [|x t IH]; intros r H; cbn [mapM] in H.
  - injection H as <-. reflexivity.
  - destruct (g x); cbn [bind] in H; try discriminate. destruct (mapM g t) as [ys| |]; cbn [bind] in H; try discriminate.
    injection H as <-. cbn [length]. f_equal. apply IH. reflexivity.
Qed.
Lemma mapM_ext_in {A B} (f g : A -> outcome B) l : (forall x, In x l -> f x = g x) -> mapM f l = mapM g l.
Proof.
  induction l as [|x r IH]; intro H; cbn [mapM]; [reflexivity|].
  rewrite (H x (or_introl eq_refl)), IH; [reflexivity|]. intros y Hy. apply H. right. exact Hy.
Qed.
Lemma mapM_ext {A B} (g h : A -> outcome B) l : (forall x, g x = h x) -> mapM g l = mapM h l.
Proof. intro H. apply mapM_ext_in. intros x _. apply H. Qed.
Lemma mapM_map {A B C} (g : B -> outcome C) (h : A -> B) l : mapM g (map h l) = mapM (fun x => g (h x)) l.
Proof. induction l as [|x r IH]; cbn [map mapM]; [reflexivity|]. rewrite IH. reflexivity. Qed.
Lemma mapM_pure {A B} (g : A -> B) l : mapM (fun x => Ok (g x)) l = Ok (map g l).
Proof. induction l as [|x r IH]; cbn [mapM map bind]; [reflexivity|]. rewrite IH. reflexivity. Qed.
Lemma mapM_map_ok {A B} (f : B -> outcome A) (g : A -> B) l :
  (forall x, In x l -> f (g x) = Ok x) -> mapM f (map g l) = Ok l.
Proof.
  induction l as [|x l IH]; intros H; cbn [map mapM]; [reflexivity|].
  rewrite (H x (or_introl eq_refl)). cbn [bind]. rewrite IH by (intros y Hy; apply H; now right).
  reflexivity.
Qed.
Lemma mapM_ok_Forall2 {A B} (f : A -> outcome B) l : forall vs,
  mapM f l = Ok vs -> Forall2 (fun x v => f x = Ok v) l vs.
Proof.
  induction l as [|x l IH]; cbn [mapM]; intros vs H.
  - injection H as <-. constructor.
  - apply bind_ok in H as (y & E & H). apply bind_ok in H as (ys & Es & H).
    injection H as <-. constructor; auto.
Qed.
Lemma mapM_collect {A B C} (d : A -> outcome C) (d' : A -> outcome B) (g : B -> C) l :
  (forall s, d s = omap g (d' s)) -> mapM d l = omap (map g) (mapM d' l).
Proof.
  intros H. induction l as [|x r IH]; cbn [mapM]; [reflexivity|]. rewrite H, IH.
  destruct (d' x); cbn [omap bind]; try reflexivity. destruct (mapM d' r); reflexivity.
Qed.

Lemma usize_max_val : usize_max = 18446744073709551615.
Proof. reflexivity. Qed.
Lemma usize_add_ok a b : a + b <= usize_max -> usize_add a b = Ok (a + b).
Proof. intro H. unfold usize_add. rewrite (proj2 (N.leb_le _ _) H). reflexivity. Qed.
