(** * C06 — Decoding allocates memory at most linearly in the input length. *)
From SSZ Require Import Base Offsets Types Codec ListDecFacts Alloc AllocFacts.
Open Scope N_scope.

(** [units t bs] (Alloc.v) is an account, in elements, of everything the decoder may reserve
    ([Vec::with_capacity(num_items)]), collect ([collect()]) or copy ([to_vec], [to_smallvec])
    while decoding [bs] at type [t], summed over every nesting level, charged on success and on
    every error path (early exit is ignored, which only enlarges the account).
    MAIN THEOREM: the account is at most a constant depending only on the type ([ufactor t]: one
    per list / byte-copy level) times the input length — for every type expression and every
    byte string.  No length, count or offset field inside the input enters the bound. *)
Theorem C06_linear :
  forall t bs, wfb bs -> len bs <= usize_max -> units t bs <= ufactor t * len bs.
Proof. exact units_linear. Qed.
Print Assumptions C06_linear.

(** The mechanism the property's anchors name: what the variable-item list decoder reserves up
    front, and the number of item decoders it runs, are bounded by a quarter of the input
    length, whatever the first offset word announces; the slices it hands out are disjoint. *)
Theorem C06_reserved_before_decoding :
  forall (d : bytes -> outcome val) c bs max,
    snd (decode_list_var_full d c bs max) <= len bs / 4 /\
    snd (fst (decode_list_var_full d c bs max)) <= len bs / 4.
Proof. intros d. exact (lv_reserved_bound d). Qed.
Print Assumptions C06_reserved_before_decoding.
Theorem C06_list_account :
  forall bs, fst (lv_alloc bs) <= len bs / 4 /\ sumN (map len (snd (lv_alloc bs))) <= len bs.
Proof. exact lv_alloc_bound. Qed.
Print Assumptions C06_list_account.
Theorem C06_sequence_account :
  forall f k bs, fst (seq_alloc f k bs) <= len bs /\ sumN (map len (snd (seq_alloc f k bs))) <= len bs.
Proof. exact seq_alloc_bound. Qed.
Print Assumptions C06_sequence_account.
Theorem C06_builder_slices_disjoint :
  forall regs bs items, wfb bs -> len bs <= usize_max ->
    builder_build regs bs = Ok items -> sumN (map len items) <= len bs.
Proof. exact builder_items_sum. Qed.
Print Assumptions C06_builder_slices_disjoint.

(** An 8-byte input whose first offset word is 2^30 (a table of 2^28 items): nothing is reserved,
    the account is tiny. *)
Example C06_example :
  units (TList (TList (TUint 8))) [0; 0; 0; 64; 1; 2; 3; 4] = 0 /\
  decode_list_var_full (dec (TList (TUint 8))) CVec [0; 0; 0; 64; 1; 2; 3; 4] None = (Err, 0, 0) /\
  units (TList (TList (TUint 2))) [8; 0; 0; 0; 10; 0; 0; 0; 1; 0; 2; 0] = 4.
Proof. vm_compute. repeat split; reflexivity. Qed.
