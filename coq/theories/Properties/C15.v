(** * C15 — Union selectors are validated and assigned by declaration order. *)
From SSZ Require Import Base Offsets OffsetsFacts Types Codec CodecUnfold SizeFacts Strict.
Open Scope N_scope.

(** Encoding: the variant's zero-based declaration index as one byte, then the variant's own
    encoding. *)
Theorem C15_encode_union :
  forall ts i x t, nth_error ts i = Some t -> enc (TUnion ts) (VUnion i x) = N.of_nat i :: enc t x.
Proof. intros ts i x t E. now rewrite enc_union, E. Qed.
Print Assumptions C15_encode_union.
Theorem C15_encode_option :
  forall t x, enc (TOption t) VNone = [0] /\ enc (TOption t) (VSome x) = 1 :: enc t x.
Proof. intros t x. split; [reflexivity|apply enc_option_some]. Qed.
Print Assumptions C15_encode_option.

(** Decoding, for all 256 selector bytes, every body and every variant list. *)
Theorem C15_decode_union :
  forall ts s body,
    dec (TUnion ts) (s :: body) =
    if s <=? 127 then
      match nth_error ts (N.to_nat s) with
      | Some t => omap (VUnion (N.to_nat s)) (dec t body)
      | None => Err
      end
    else Err.
Proof. exact dec_union_selector. Qed.
Print Assumptions C15_decode_union.
Theorem C15_rejects_empty_and_undeclared :
  forall ts, dec (TUnion ts) [] = Err /\
             (forall s body, (length ts <= N.to_nat s)%nat -> dec (TUnion ts) (s :: body) = Err) /\
             (forall s body, 127 < s -> dec (TUnion ts) (s :: body) = Err).
Proof.
  intros ts. split; [apply dec_union_empty|]. split; [intros; now apply dec_union_undeclared|].
  intros s body H. rewrite dec_union_selector. now replace (s <=? 127) with false by lia.
Qed.
Print Assumptions C15_rejects_empty_and_undeclared.
Theorem C15_decode_option :
  forall t s body,
    dec (TOption t) (s :: body) =
    if s =? 0 then (match body with [] => Ok VNone | _ => Err end)
    else if s =? 1 then omap VSome (dec t body) else Err.
Proof. exact dec_option_selector. Qed.
Print Assumptions C15_decode_option.

(** The selector-splitting helper: first byte and the remaining bytes unchanged, iff <= 127. *)
Theorem C15_split_union_bytes :
  forall bs, split_union_bytes bs =
             match bs with [] => Err | s :: body => if s <=? 127 then Ok (s, body) else Err end.
Proof. exact split_union_bytes_spec. Qed.
Print Assumptions C15_split_union_bytes.

(** The general statements on the full 128 x 256 grid of (variant count, selector): a union of n byte
    variants accepts [s; 7] iff s < n.  With at most 128 variants a declared selector is below 128, so
    [C15_decode_union] decides every point of the grid. *)
Example C15_grid :
  forallb (fun n => forallb (fun s =>
      Bool.eqb (is_ok (dec (TUnion (repeat (TUint 1) n)) [N.of_nat s; 7])) (Nat.ltb s n))
    (seq 0 256)) (seq 1 128) = true.
Proof.
  apply forallb_forall. intros n Hn. apply forallb_forall. intros s _. apply in_seq in Hn.
  rewrite C15_decode_union, Nat2N.id. destruct (PeanoNat.Nat.ltb_spec s n) as [H|H].
  - rewrite nth_error_repeat by exact H. replace (N.of_nat s <=? 127) with true by lia. reflexivity.
  - rewrite (proj2 (nth_error_None _ s)) by (rewrite repeat_length; exact H). destruct (N.of_nat s <=? 127); reflexivity.
Qed.
