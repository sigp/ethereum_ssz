(** * C07 — Size metadata is exact and consistent between encoder and decoder. *)
From SSZ Require Import Base Offsets Types Codec ListDecFacts LeafIface LeafProof MetaFacts SizeFacts Strict.
Open Scope N_scope.

(** [bytes_len] mirrors each [ssz_bytes_len] body (tuple sums, [sequence_ssz_bytes_len],
    [into_bytes().len()], the legacy module, Option + 1), not [length (enc ..)]. *)
Theorem C07_predicted_size : forall t v, has_ty t v = true -> bytes_len t v = len (enc t v).
Proof. exact (bytes_len_enc leaf_facts). Qed.
Print Assumptions C07_predicted_size.

Theorem C07_sides_agree :
  forall t, e_is_fixed t = d_is_fixed t /\ e_fixed_len t = d_fixed_len t.
Proof. intros t. split; [apply is_fixed_agree|apply fixed_len_agree]. Qed.
Print Assumptions C07_sides_agree.

Theorem C07_variable_is_4 : forall t, e_is_fixed t = false -> e_fixed_len t = 4.
Proof. exact variable_fixed_len. Qed.
Print Assumptions C07_variable_is_4.

Theorem C07_fixed_encodes_to_fixed_len :
  forall t v, e_is_fixed t = true -> has_ty t v = true -> len (enc t v) = e_fixed_len t.
Proof. intros t v Hf Hv. exact (fixed_enc_len leaf_facts t v Hv Hf). Qed.
Print Assumptions C07_fixed_encodes_to_fixed_len.

Theorem C07_fixed_accepts_only_fixed_len :
  forall t bs v, d_is_fixed t = true -> phys bs -> dec t bs = Ok v -> len bs = d_fixed_len t.
Proof. intros t bs v Hf. exact (fixed_dec_len t Hf bs v). Qed.
Print Assumptions C07_fixed_accepts_only_fixed_len.

Example C07_example :
  let t := TContainer true [TUint 2; TBitVector 9; TTag 3; TContainer false [TBool; TBytesN 3]] in
  e_is_fixed t = true /\ e_fixed_len t = 9 /\
  has_ty t (VCont [VUint 7; VBits (repeat true 9); VTag 1; VCont [VBool true; VBytes [1; 2; 3]]]) = true.
Proof. vm_compute. repeat split; reflexivity. Qed.
