(** * C12 — Bitfield set operations are exact for all operand pairs. *)
From SSZ Require Import Base Bitfield BitfieldFacts BitfieldOps BitfieldOpsFacts.
Open Scope N_scope.

(** [R fl b bits]: the implementation bitfield [b] (satisfying the representation invariant and
    the flavour's length rule) represents the boolean sequence [bits].  The abstract operations
    are pointwise on the first n positions with missing positions read as false ([a_zip]);
    n = the longer operand (union of bitlists / dynamic, intersection of dynamic), the shorter
    (intersection of bitlists), N (bitvectors), the left operand (difference). *)
Theorem C12_union :
  forall fl a abits o obits, R fl a abits -> R fl o obits ->
    match i_union fl a o, a_union fl abits obits with Ok r, Ok rbits => R fl r rbits | _, _ => False end.
Proof. exact R_union. Qed.
Print Assumptions C12_union.
Theorem C12_intersection :
  forall fl a abits o obits, R fl a abits -> R fl o obits ->
    match i_inter fl a o, a_inter fl abits obits with Ok r, Ok rbits => R fl r rbits | _, _ => False end.
Proof. exact R_inter. Qed.
Print Assumptions C12_intersection.
Theorem C12_difference :
  forall fl a abits o obits, R fl a abits -> R fl o obits ->
    R fl (difference a o) (a_diff abits obits) /\ R fl (difference_inplace a o) (a_diff abits obits).
Proof. intros. split; now apply R_diff. Qed.
Print Assumptions C12_difference.
Theorem C12_subset :
  forall fl a abits o obits, R fl a abits -> R fl o obits ->
    bf_is_subset a o = forallb negb (a_diff abits obits).
Proof. exact R_subset. Qed.
Print Assumptions C12_subset.
(** The abstract results have the lengths the property states. *)
Theorem C12_result_lengths :
  forall a o n,
    length (a_zip orb n a o) = n /\ length (a_zip andb n a o) = n /\ length (a_diff a o) = length a.
Proof. intros. unfold a_diff, a_zip. rewrite !map_length, !seq_length. auto. Qed.
Print Assumptions C12_result_lengths.

Example C12_example :
  exists a o, R (FList 16) a [true; false; true] /\ R (FList 16) o [true; true; false; false; true] /\
    a_union (FList 16) [true; false; true] [true; true; false; false; true] = Ok [true; true; true; false; true] /\
    a_inter (FList 16) [true; false; true] [true; true; false; false; true] = Ok [true; false; false].
Proof.
  exists {| bf_bytes := [5]; bf_len := 3 |}, {| bf_bytes := [19]; bf_len := 5 |}.
  (* the two operands are what decoding [13] and [51] yields: [R_decode] at these bytes, evaluated *)
  split; [exact (R_decode (FList 16) [13] ltac:(repeat constructor))|].
  split; [exact (R_decode (FList 16) [51] ltac:(repeat constructor))|].
  split; reflexivity.
Qed.
