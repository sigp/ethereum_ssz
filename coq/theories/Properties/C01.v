(** * C01 — Round trip: decoding an encoding returns the original value. *)
From SSZ Require Import Base Types Codec LeafIface LeafProof OrderFacts RoundTrip.
Open Scope N_scope.

(** For every type expression of the algebra except transparent enums and lists (sets, maps)
    of zero-length items ([rt_type], which also asks for 1..128 union/tag variants and orderable
    keys: what the Rust compiler and the derive macro accept), every value of it, and encodings
    shorter than 2^32 bytes: decoding the encoding yields the value.  Any nesting, any arity:
    the proof is by induction on the type expression. *)
Theorem C01_round_trip :
  forall t v, rt_type t = true -> has_ty t v = true -> len (enc t v) < 4294967296 ->
    dec t (enc t v) = Ok v.
Proof.
  intros t v Hrt Hv Hlen. exact (rt_facts leaf_facts t Hrt v Hv Hlen).
Qed.
Print Assumptions C01_round_trip.

(** Non-vacuity: a nested type with a derived container, a map, a union, a bitlist, a legacy
    option and a transparent wrapper, and a value of it, satisfy all three hypotheses. *)
Definition ex_ty : ty :=
  TContainer true
    [TUint 2; TList (TList (TUint 1)); TMap (TUint 1) (TList (TUint 2));
     TUnion [TUint 1; TOption (TBytesN 2)]; TBitList 9; TLegacyOpt (TUint 4); TWrap (TTag 3);
     TSet (TContainer false [TUint 1; TBool])].
Definition ex_val : val :=
  VCont [VUint 513; VList [VList [VUint 1; VUint 2]; VList []];
         VList [VCont [VUint 1; VList [VUint 7]]; VCont [VUint 9; VList []]];
         VUnion 1 (VSome (VBytes [5; 6])); VBits [true; false; true]; VSome (VUint 99); VTag 2;
         VList [VCont [VUint 0; VBool true]; VCont [VUint 1; VBool false]]].
Example C01_hypotheses_satisfiable :
  rt_type ex_ty = true /\ has_ty ex_ty ex_val = true /\ len (enc ex_ty ex_val) < 4294967296 /\
  dec ex_ty (enc ex_ty ex_val) = Ok ex_val.
Proof. vm_compute. repeat split; reflexivity. Qed.
