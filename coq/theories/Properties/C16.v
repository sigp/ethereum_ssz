(** * C16 — List length limits and fallible collections are enforced before work is done. *)
From SSZ Require Import Base Offsets Types Codec ListDecFacts.
Open Scope N_scope.

(** [announced bs n]: the input's first offset word is a well-formed table size for n items. *)

(** Over the limit: an error, no item decoder was invoked, nothing was reserved — for every
    item decoder, target collection and input. *)
Theorem C16_over_limit :
  forall (d : bytes -> outcome val) c bs n max,
    announced bs n -> max < n -> decode_list_var_full d c bs (Some max) = (Err, 0, 0).
Proof. intros d. exact (lv_over_limit d). Qed.
Print Assumptions C16_over_limit.

(** Within the limit: exactly what unlimited decoding returns (result, work, reservation). *)
Theorem C16_within_limit :
  forall (d : bytes -> outcome val) c bs n max,
    announced bs n -> n <= max ->
    decode_list_var_full d c bs (Some max) = decode_list_var_full d c bs None.
Proof. intros d. exact (lv_within_limit d). Qed.
Print Assumptions C16_within_limit.

(** A malformed first offset is an error before any work, whatever the limit. *)
Theorem C16_not_announced :
  forall (d : bytes -> outcome val) c bs max,
    bs <> [] -> (forall n, ~ announced bs n) -> decode_list_var_full d c bs max = (Err, 0, 0).
Proof. intros d. exact (lv_not_announced d). Qed.
Print Assumptions C16_not_announced.

(** A collection that refuses yields an error, never a shorter collection, never a panic. *)
Theorem C16_refusing :
  forall (d : bytes -> outcome val) bs max, decode_list_var d CRefusing bs max = Err.
Proof. intros d. exact (lv_refusing d). Qed.
Print Assumptions C16_refusing.
Theorem C16_bounded :
  forall (d : bytes -> outcome val) k bs max,
    decode_list_var d (CBounded k) bs max =
    match decode_list_var d CVec bs max with
    | Ok vs => if N.of_nat (length vs) <=? k then Ok vs else Err
    | r => r
    end.
Proof. intros d. exact (lv_bounded d). Qed.
Print Assumptions C16_bounded.

(** Empty input: the collection's answer on the empty iterator. *)
Theorem C16_empty :
  forall (d : bytes -> outcome val) c max, decode_list_var d c [] max = collect_kind c [].
Proof. intros d. exact (lv_empty d). Qed.
Print Assumptions C16_empty.

(** A successful decode returns exactly the announced number of items. *)
Theorem C16_count :
  forall (d : bytes -> outcome val) bs max vs n,
    decode_list_var d CVec bs max = Ok vs -> announced bs n -> N.of_nat (length vs) = n.
Proof. intros d. exact (lv_ok_length d). Qed.
Print Assumptions C16_count.

(** No panic, for every limit and collection kind. *)
Theorem C16_no_panic :
  forall (d : bytes -> outcome val) c bs max,
    (forall s, d s <> Panic) -> decode_list_var d c bs max <> Panic.
Proof. intros d. exact (decode_list_var_no_panic d). Qed.
Print Assumptions C16_no_panic.

(** Non-vacuity: two items announced, limit 1 / limit 2. *)
Example C16_example :
  announced [8; 0; 0; 0; 10; 0; 0; 0; 1; 0; 2; 0] 2 /\
  decode_list_var_full (dec (TList (TUint 2))) CVec [8; 0; 0; 0; 10; 0; 0; 0; 1; 0; 2; 0] (Some 1) = (Err, 0, 0) /\
  decode_list_var (dec (TList (TUint 2))) CVec [8; 0; 0; 0; 10; 0; 0; 0; 1; 0; 2; 0] (Some 2)
  = Ok [VList [VUint 1]; VList [VUint 2]].
Proof.
  split; [|split; reflexivity].
  apply announced_iff. split; [reflexivity|split; vm_compute; discriminate].
Qed.
