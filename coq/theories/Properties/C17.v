(** * C17 — Legacy four-byte-selector Option codec is exact and strict. *)
From SSZ Require Import Base Offsets Types Codec CodecUnfold ListDecFacts LeafIface LeafProof
     SizeFacts RoundTrip Canon Strict.
Open Scope N_scope.

Theorem C17_encoding :
  forall t x, enc (TLegacyOpt t) VNone = [0; 0; 0; 0] /\
              enc (TLegacyOpt t) (VSome x) = [1; 0; 0; 0] ++ enc t x.
Proof. intros t x. split; [reflexivity|apply enc_legacy_some]. Qed.
Print Assumptions C17_encoding.

Theorem C17_exact_sizes :
  forall t v, has_ty (TLegacyOpt t) v = true -> bytes_len (TLegacyOpt t) v = len (enc (TLegacyOpt t) v).
Proof. intros t v Hv. exact (proj1 (size_facts leaf_facts (TLegacyOpt t) v Hv)). Qed.
Print Assumptions C17_exact_sizes.

(** Round trip standalone, and as a field codec inside derived containers (a [#[ssz(with)]]
    field is a field of type [TLegacyOpt t]), at any position among other fields. *)
Theorem C17_round_trip :
  forall t v, rt_type t = true -> has_ty (TLegacyOpt t) v = true ->
    len (enc (TLegacyOpt t) v) < 4294967296 -> dec (TLegacyOpt t) (enc (TLegacyOpt t) v) = Ok v.
Proof.
  (* [rt_type (TLegacyOpt t)] computes to [rt_type t] *)
  intros t v Hr. exact (rt_facts leaf_facts (TLegacyOpt t) Hr v).
Qed.
Print Assumptions C17_round_trip.
Theorem C17_round_trip_as_field :
  forall pre t post v, rt_type (TContainer true (pre ++ TLegacyOpt t :: post)) = true ->
    has_ty (TContainer true (pre ++ TLegacyOpt t :: post)) v = true ->
    len (enc (TContainer true (pre ++ TLegacyOpt t :: post)) v) < 4294967296 ->
    dec (TContainer true (pre ++ TLegacyOpt t :: post)) (enc (TContainer true (pre ++ TLegacyOpt t :: post)) v) = Ok v.
Proof. intros pre t post v Hr Hv Hl. exact (rt_facts leaf_facts _ Hr v Hv Hl). Qed.
Print Assumptions C17_round_trip_as_field.

(** Strictness. *)
Theorem C17_rejects_short : forall t bs, len bs < 4 -> dec (TLegacyOpt t) bs = Err.
Proof. exact legacy_short. Qed.
Print Assumptions C17_rejects_short.
Theorem C17_selectors :
  forall t w body, length w = 4%nat ->
    dec (TLegacyOpt t) (w ++ body) =
    if le_val w =? 0 then (match body with [] => Ok VNone | _ => Err end)
    else if le_val w =? 1 then omap VSome (dec t body) else Err.
Proof. exact legacy_selector. Qed.
Print Assumptions C17_selectors.
Theorem C17_canonical :
  forall t bs v, canon_type t = true -> phys bs -> dec (TLegacyOpt t) bs = Ok v -> enc (TLegacyOpt t) v = bs.
Proof.
  intros t bs v Hc Hp Hd. exact (proj1 (canon_facts leaf_facts (TLegacyOpt t) Hc bs v Hp Hd)).
Qed.
Print Assumptions C17_canonical.

Example C17_example :
  dec (TLegacyOpt (TList (TUint 2))) [1; 0; 0; 0; 5; 0; 6; 0] = Ok (VSome (VList [VUint 5; VUint 6])) /\
  dec (TLegacyOpt (TUint 2)) [2; 0; 0; 0; 5; 0] = Err /\ dec (TLegacyOpt (TUint 2)) [0; 0; 0] = Err /\
  dec (TLegacyOpt (TUint 2)) [0; 0; 0; 0; 5] = Err.
Proof. vm_compute. repeat split; reflexivity. Qed.
