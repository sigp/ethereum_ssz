(** * C04 — Decoding accepts exactly the valid encodings and returns the specified value. *)
From SSZ Require Import Base Offsets Types Codec Spec CodecUnfold ListDecFacts Strict ListView ListViewFacts.
Open Scope N_scope.

(** The reference "deserializer" is the relation [Valid t bs v] of [Spec.v]: [v] is a value of
    schema [t] and [bs] is its serialization.  For every strict type (everything except ordered
    collections, transparent enums and lists of zero-length items, which SSZ forbids) and every
    byte string shorter than 2^32 (the spec's own size bound; the crate does not enforce it and
    this theorem does not claim it does): *)
Theorem C04_exact :
  forall t bs v, strict_type t = true -> phys bs -> len bs < 4294967296 ->
    (dec t bs = Ok v <-> Valid t bs v).
Proof. exact dec_iff_valid. Qed.
Print Assumptions C04_exact.

(** Ordered collections, forward direction: whatever is accepted is a well-formed entry list
    and the result is the collection of its entries. *)
Theorem C04_sets_forward :
  forall t bs m, canon_type t = true -> phys bs -> dec (TSet t) bs = Ok m ->
    exists es, dec (TList t) bs = Ok (VList es) /\ Valid (TList t) bs (VList es) /\
               m = VList (collect_entries false es).
Proof. exact dec_set_forward. Qed.
Print Assumptions C04_sets_forward.
Theorem C04_maps_forward :
  forall k v bs m, canon_type k = true -> canon_type v = true -> phys bs -> dec (TMap k v) bs = Ok m ->
    exists es, dec (TList (TContainer false [k; v])) bs = Ok (VList es) /\
               Valid (TList (TContainer false [k; v])) bs (VList es) /\
               m = VList (collect_entries true es).
Proof. exact dec_map_forward. Qed.
Print Assumptions C04_maps_forward.

(** Ordered collections anywhere inside a type, both directions: with every set / map read as the plain list of its
    entries ([list_view]), a type accepts exactly the valid encodings of that view, and returns the collection of the
    listed entries, collected innermost first ([collect_rec]).  Under its hypotheses this contains the two forward theorems
    above and their converse, at every nesting depth (a map whose values are sets, a list of maps, a set inside a union ...). *)
Theorem C04_collections_at_any_depth :
  forall t bs v, strict_type (list_view t) = true -> phys bs -> len bs < 4294967296 ->
    (dec t bs = Ok v <-> exists L, Valid (list_view t) bs L /\ v = collect_rec t L).
Proof.
  intros t bs v Hs Hp Hl. rewrite (dec_by_collection t bs). split.
  - destruct (dec (list_view t) bs) as [L| |] eqn:E; cbn [omap]; try discriminate.
    intro H. injection H as <-. exists L. split; [|reflexivity].
    apply (dec_iff_valid (list_view t) bs L Hs Hp Hl). exact E.
  - intros (L & HV & ->). apply (dec_iff_valid (list_view t) bs L Hs Hp Hl) in HV. rewrite HV. reflexivity.
Qed.
Print Assumptions C04_collections_at_any_depth.
Example C04_collections_hypotheses_satisfiable :
  let t := TMap (TUint 1) (TSet (TUint 2)) in
  strict_type (list_view t) = true /\
  Valid (list_view t) [4; 0; 0; 0; 0; 5; 0; 0; 0; 0; 0; 0; 0] (VList [VCont [VUint 0; VList [VUint 0; VUint 0]]]) /\
  collect_rec t (VList [VCont [VUint 0; VList [VUint 0; VUint 0]]]) = VList [VCont [VUint 0; VList [VUint 0]]].
Proof. vm_compute. repeat split; reflexivity. Qed.

(** Transparent enums decode to the first variant that accepts. *)
Theorem C04_transparent_enum :
  forall ts bs, dec (TTransEnum ts) bs = first_ok (map dec ts) bs 0.
Proof. exact dec_trans. Qed.
Print Assumptions C04_transparent_enum.

Example C04_hypotheses_satisfiable :
  let t := TContainer true [TUint 2; TList (TUint 2); TOption TBool] in
  strict_type t = true /\
  Valid t [1; 0; 10; 0; 0; 0; 14; 0; 0; 0; 2; 0; 3; 0; 1; 1]
        (VCont [VUint 1; VList [VUint 2; VUint 3]; VSome (VBool true)]).
Proof. vm_compute. repeat split; reflexivity. Qed.
