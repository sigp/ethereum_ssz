(** * C19 — Ordered maps and sets encode as sorted entry lists and decode by collection. *)
From SSZ Require Import Base Offsets Types Codec CodecUnfold ListDecFacts LeafIface LeafProof
     OrderFacts RoundTrip Canon Strict ListView ListViewFacts ListViewEnc ListViewTyped.
Open Scope N_scope.

(** A map or set value is its list of entries in strictly ascending key order ([has_ty]). *)
Theorem C19_set_encodes_as_list :
  forall t vs, enc (TSet t) (VList vs) = enc (TList t) (VList vs).
Proof. exact set_encodes_as_list. Qed.
Print Assumptions C19_set_encodes_as_list.
Theorem C19_map_encodes_as_list :
  forall k v es, has_ty (TMap k v) (VList es) = true ->
    enc (TMap k v) (VList es) = enc (TList (TContainer false [k; v])) (VList es).
Proof. exact AppendFacts.enc_map_typed. Qed.
Print Assumptions C19_map_encodes_as_list.

(** Decoding = decoding the entry list, then collecting (ascending, later duplicate wins);
    malformed lists or entries are rejected because the list decoder rejects them. *)
Theorem C19_set_decodes_by_collection :
  forall t bs, dec (TSet t) bs =
    match dec (TList t) bs with
    | Ok (VList es) => Ok (VList (collect_entries false es))
    | Ok _ => Err | Err => Err | Panic => Panic
    end.
Proof. exact dec_set_is_collect. Qed.
Print Assumptions C19_set_decodes_by_collection.
Theorem C19_map_decodes_by_collection :
  forall k v bs, dec (TMap k v) bs =
    match dec (TList (TContainer false [k; v])) bs with
    | Ok (VList es) => Ok (VList (collect_entries true es))
    | Ok _ => Err | Err => Err | Panic => Panic
    end.
Proof. exact dec_map_is_collect. Qed.
Print Assumptions C19_map_decodes_by_collection.

(** What [collect_entries] computes: strictly ascending, only listed entries, and for every
    listed key the LAST entry listed for it. *)
Theorem C19_collection_semantics :
  forall kt is_map l, key_type kt = true -> keys_typed kt is_map l ->
    strictly_sorted is_map (collect_entries is_map l) = true /\
    (forall e, In e (collect_entries is_map l) -> In e l) /\
    (forall l1 e l2, l = l1 ++ e :: l2 ->
       (forall e', In e' l2 -> val_cmp (entry_key is_map e') (entry_key is_map e) <> Eq) ->
       In e (collect_entries is_map l)).
Proof.
  intros kt m l Hk Ht. split; [now apply (collect_is_sorted kt)|]. split; [intros e; apply collect_incl|].
  intros l1 e l2 -> H. now apply (collect_later_wins kt).
Qed.
Print Assumptions C19_collection_semantics.

(** [val_cmp] is a strict total order on key-typed values (it is the Rust [Ord] there). *)
Theorem C19_key_order :
  forall t a b c, key_type t = true -> has_ty t a = true -> has_ty t b = true -> has_ty t c = true ->
    (val_cmp a b = Eq -> a = b) /\ val_cmp a b = CompOpp (val_cmp b a) /\
    (val_cmp a b = Lt -> val_cmp b c = Lt -> val_cmp a c = Lt).
Proof.
  intros t a b c Hk Ha Hb Hc. split; [now apply (val_cmp_eq t)|]. split; [apply val_cmp_antisym|].
  now apply (val_cmp_trans t).
Qed.
Print Assumptions C19_key_order.

(** Decoding an encoding returns the original collection; re-encoding a decoded collection is
    a fixed point. *)
Theorem C19_round_trip :
  forall t m, (exists a, t = TSet a) \/ (exists k v, t = TMap k v) ->
    rt_type t = true -> has_ty t m = true -> len (enc t m) < 4294967296 -> dec t (enc t m) = Ok m.
Proof. intros t m _ Hr Hv Hl. exact (rt_facts leaf_facts t Hr m Hv Hl). Qed.
Print Assumptions C19_round_trip.
Theorem C19_set_fixed_point :
  forall t bs m, canon_type t = true -> rt_type (TSet t) = true -> phys bs -> dec (TSet t) bs = Ok m ->
    len (enc (TSet t) m) < 4294967296 -> dec (TSet t) (enc (TSet t) m) = Ok m.
Proof.
  intros t bs m Hc Hr. apply fixed_point_at_any_depth; [|exact Hr].
  destruct (ty_all_inv _ _ Hr) as [Hn _]. apply andb_prop in Hn as [Hk _]. cbn [node_wf] in Hk.
  cbn [list_view]. rewrite (proj1 (key_view t Hk)). unfold canon_type in *. cbn [ty_all]. now rewrite Hc.
Qed.
Print Assumptions C19_set_fixed_point.

(** Decoding by collection at every depth: a type with sets / maps anywhere inside it accepts exactly the
    byte strings its entry-list view accepts ([list_view]: every set / map read as the plain list of its entries),
    and returns the collection of the listed entries, collected innermost first ([collect_rec]).  In particular an
    inner set listed out of order or with a duplicate is accepted and denotes the sorted duplicate-free set. *)
Theorem C19_decode_by_collection_at_every_depth :
  forall t bs, dec t bs = omap (collect_rec t) (dec (list_view t) bs).
Proof. exact dec_by_collection. Qed.
Print Assumptions C19_decode_by_collection_at_every_depth.

(** ... and encoding as entry lists at every depth: a well-typed value (collections strictly ascending, wherever
    they sit) encodes exactly as the same value read at the entry-list view of the type. *)
Theorem C19_encode_as_entry_lists_at_every_depth :
  forall t v, has_ty t v = true -> enc t v = enc (list_view t) v.
Proof. exact enc_by_entry_list. Qed.
Print Assumptions C19_encode_as_entry_lists_at_every_depth.

(** What a decoder returns is well typed at every depth (each set / map strictly ascending, wherever it sits), and
    re-encoding it is a fixed point of the decoder -- the general form of [C19_set_fixed_point]: [t] may hold sets and
    maps anywhere, as long as what remains when they are read as lists is a canonical type. *)
Theorem C19_decoded_collections_sorted_at_every_depth :
  forall t bs v, canon_type (list_view t) = true -> wf_type t = true -> phys bs -> dec t bs = Ok v -> has_ty t v = true.
Proof. exact dec_typed_at_any_depth. Qed.
Print Assumptions C19_decoded_collections_sorted_at_every_depth.
Theorem C19_fixed_point_at_every_depth :
  forall t bs v, canon_type (list_view t) = true -> rt_type t = true -> phys bs -> dec t bs = Ok v ->
    len (enc t v) < 4294967296 -> dec t (enc t v) = Ok v.
Proof. exact fixed_point_at_any_depth. Qed.
Print Assumptions C19_fixed_point_at_every_depth.
Example C19_every_depth_hypotheses_satisfiable :
  let t := TContainer true [TUint 2; TMap (TUint 1) (TSet (TUint 2)); TList (TSet (TUint 1))] in
  canon_type (list_view t) = true /\ rt_type t = true /\ wf_type t = true.
Proof. vm_compute. repeat split; reflexivity. Qed.

Example C19_nested_example :
  list_view (TMap (TUint 1) (TSet (TUint 2))) = TList (TContainer false [TUint 1; TList (TUint 2)]) /\
  dec (TMap (TUint 1) (TSet (TUint 2))) [4; 0; 0; 0; 0; 5; 0; 0; 0; 0; 0; 0; 0]
    = Ok (VList [VCont [VUint 0; VList [VUint 0]]]) /\
  dec (TList (TContainer false [TUint 1; TList (TUint 2)])) [4; 0; 0; 0; 0; 5; 0; 0; 0; 0; 0; 0; 0]
    = Ok (VList [VCont [VUint 0; VList [VUint 0; VUint 0]]]).
Proof. vm_compute. repeat split; reflexivity. Qed.

Example C19_example :
  dec (TMap (TUint 1) (TUint 1)) [3; 1; 1; 2; 3; 9; 2; 5] =
    Ok (VList [VCont [VUint 1; VUint 2]; VCont [VUint 2; VUint 5]; VCont [VUint 3; VUint 9]]) /\
  enc (TMap (TUint 1) (TUint 1)) (VList [VCont [VUint 1; VUint 2]; VCont [VUint 2; VUint 5]; VCont [VUint 3; VUint 9]])
    = [1; 2; 2; 5; 3; 9].
Proof. vm_compute. split; reflexivity. Qed.
