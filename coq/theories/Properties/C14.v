(** * C14 — Bitfield byte-level API agrees with the SSZ codec and its validity rules. *)
From SSZ Require Import Base Bitfield BitfieldFacts Types Codec Spec BitfieldOps BitfieldOpsFacts.
Open Scope N_scope.

(** The SSZ codec of the three bitfield types IS the byte-level API (the Encode/Decode impls
    delegate to into_bytes / from_bytes). *)
Theorem C14_codec_is_byte_api :
  forall n bs,
    dec (TBitList n) bs = omap (fun b => VBits (bf_iter b)) (bl_from_bytes n bs) /\
    dec (TBitVector n) bs = omap (fun b => VBits (bf_iter b)) (bv_from_bytes n bs) /\
    dec TBitDyn bs = omap (fun b => VBits (bf_iter b)) (bd_decode bs).
Proof. intros. repeat split. Qed.
Print Assumptions C14_codec_is_byte_api.

(** into_bytes / as_ssz_bytes of a bitfield are the spec serialization of its bits. *)
Theorem C14_into_bytes :
  forall fl b bits, R fl b bits ->
    i_ssz fl b = a_ssz fl bits /\ bf_bytes b = a_slice bits.
Proof. intros fl b bits H. split; [apply (R_ssz _ _ _ H) | apply (R_slice _ _ _ H)]. Qed.
Print Assumptions C14_into_bytes.

(** from_bytes accepts exactly the closed-form accept sets and yields the unpacked bits. *)
Theorem C14_from_bytes :
  forall fl bs, wfb bs ->
    match i_decode fl bs, a_decode fl bs with Ok b, Ok bits => R fl b bits | Err, Err => True | _, _ => False end.
Proof. exact R_decode. Qed.
Print Assumptions C14_from_bytes.

(** The accept sets, spelled out as in the property. *)
Theorem C14_accept_bitlist :
  forall n bs, is_ok (a_decode (FList n) bs) = true <->
    exists last rest, rev bs = last :: rest /\ last <> 0 /\ 8 * (len bs - 1) + N.log2 last <= n.
Proof.
  intros n bs. unfold a_decode. destruct (rev bs) as [|last rest] eqn:E.
  - split; [discriminate|]. intros (l & r & H & _). discriminate.
  - destruct (last =? 0) eqn:E0.
    + split; [discriminate|]. intros (l & r & H & Hl & _). injection H as <- <-. apply N.eqb_eq in E0. contradiction.
    + destruct (8 * (len bs - 1) + N.log2 last <=? n) eqn:El.
      * split; [|reflexivity]. intros _. exists last, rest. repeat split; [intro; subst; discriminate|now apply N.leb_le].
      * split; [discriminate|]. intros (l & r & H & _ & Hn). injection H as <- <-. apply N.leb_le in Hn. congruence.
Qed.
Print Assumptions C14_accept_bitlist.
Theorem C14_accept_bitvector :
  forall n bs, is_ok (a_decode (FVec n) bs) = true <->
    len bs = bytes_for_bit_len n /\ forallb negb (skipn (N.to_nat n) (unpack bs)) = true.
Proof.
  intros n bs. unfold a_decode, is_ok.
  destruct (len bs =? bytes_for_bit_len n) eqn:E1; cbn [andb].
  - apply N.eqb_eq in E1.
    destruct (forallb (fun b : bool => negb b) (skipn (N.to_nat n) (unpack bs))) eqn:E2.
    + split; [intros _; split; [exact E1|reflexivity]|reflexivity].
    + split; [discriminate|]. intros [_ H]. discriminate.
  - split; [discriminate|]. intros [H _]. apply N.eqb_neq in E1. contradiction.
Qed.
Print Assumptions C14_accept_bitvector.
Theorem C14_accept_dynamic : forall bs, is_ok (a_decode FDyn bs) = true <-> bs <> [].
Proof. intros [|b bs]; cbn; split; congruence. Qed.
Print Assumptions C14_accept_dynamic.
Theorem C14_dynamic_with_len :
  forall bs l, wfb bs ->
    match bd_from_bytes_with_len bs l, a_from_bytes_with_len bs l with
    | Ok b, Ok bits => R FDyn b bits | Err, Err => True | _, _ => False end.
Proof. exact from_bytes_with_len_refines. Qed.
Print Assumptions C14_dynamic_with_len.

Example C14_example :
  a_decode (FList 8) [16] = Ok [false; false; false; false] /\ a_decode (FList 3) [16] = Err /\
  a_decode (FVec 0) [0] = Ok [] /\ a_decode (FVec 0) [1] = Err /\ a_decode (FVec 9) [255; 1] = Ok (repeat true 9) /\
  a_decode (FVec 9) [255; 2] = Err /\ a_decode FDyn [] = Err.
Proof. vm_compute. repeat split; reflexivity. Qed.
