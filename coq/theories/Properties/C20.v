(** * C20 — Arbitrary generators yield valid and reachable bitfields. *)
From SSZ Require Import Base Bitfield BitfieldFacts BitfieldOps BitfieldOpsFacts.
Open Scope N_scope.

(** [Unstructured] is modelled by its remaining data; [fill_buffer] copies what is available
    and zero-fills the rest, [usize::arbitrary] reads 8 bytes little-endian the same way
    (third-party behaviour, assumed; tied by the correspondence run). *)
Theorem C20_never_panics :
  forall n data, wfb data -> arb_bitvector n data <> Panic /\ arb_bitlist n data <> Panic.
Proof. exact arb_no_panic. Qed.
Print Assumptions C20_never_panics.

(** Every returned value is a valid bitfield of its type: representation invariant, exactly N
    bits (bitvector) / at most N bits (bitlist), and it survives an SSZ round trip. *)
Theorem C20_bitvector_valid :
  forall n data b, wfb data -> arb_bitvector n data = Ok b ->
    exists bits, R (FVec n) b bits /\ bf_len b = n /\ i_decode (FVec n) (i_ssz (FVec n) b) = Ok b.
Proof. exact arb_bitvector_sound. Qed.
Print Assumptions C20_bitvector_valid.
Theorem C20_bitlist_valid :
  forall n data b, wfb data -> arb_bitlist n data = Ok b ->
    exists bits, R (FList n) b bits /\ bf_len b <= n /\ i_decode (FList n) (i_ssz (FList n) b) = Ok b.
Proof. exact arb_bitlist_sound. Qed.
Print Assumptions C20_bitlist_valid.

(** Reachability: for every capacity (bitvectors) / every capacity >= 1 (bitlists) there is an
    input on which generation succeeds. *)
Theorem C20_bitvector_reachable : forall n, exists b, arb_bitvector n [] = Ok b.
Proof. exact arb_bitvector_reachable. Qed.
Print Assumptions C20_bitvector_reachable.
Theorem C20_bitlist_reachable :
  forall n, 1 <= n -> exists b, arb_bitlist n [1; 0; 0; 0; 0; 0; 0; 0; 1] = Ok b.
Proof. exact arb_bitlist_reachable. Qed.
Print Assumptions C20_bitlist_reachable.

Example C20_example :
  is_ok (arb_bitvector 9 [255; 1]) = true /\ arb_bitvector 9 [255; 3] = Err /\
  is_ok (arb_bitlist 16 [2; 0; 0; 0; 0; 0; 0; 0; 255; 1]) = true.
Proof. vm_compute. repeat split; reflexivity. Qed.
