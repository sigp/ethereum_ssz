(** * OrderFacts: [val_cmp] is a strict total order on the values of key types, and
    [collect_entries] (the model of [BTreeMap/BTreeSet::from_iter]) produces the strictly
    ascending list of the last entry listed for every key. *)
From Coq Require Import List NArith Lia Bool Arith ZArith ZifyN ZifyNat ZifyBool.
From SSZ Require Import Codec CodecUnfold.
Import ListNotations.
Open Scope N_scope.

(** [cmp] is a strict order on [P]: [Eq] is equality and [Lt] is transitive. *)
Definition ord_on {A} (P : A -> Prop) (cmp : A -> A -> comparison) : Prop :=
  forall a b, P a -> P b ->
  (cmp a b = Eq -> a = b) /\ (forall c, P c -> cmp a b = Lt -> cmp b c = Lt -> cmp a c = Lt).

(** An order carried along a constructor [g]. *)
Lemma ord_on_map {A B} (g : B -> A) (Q : B -> Prop) cmpB (P : A -> Prop) cmpA :
  (forall a, P a -> exists b, a = g b /\ Q b) -> (forall x y, cmpA (g x) (g y) = cmpB x y) ->
  ord_on Q cmpB -> ord_on P cmpA.
Proof.
  intros Hg Hc Ho a b Ha Hb. destruct (Hg a Ha) as (x & -> & Hx), (Hg b Hb) as (y & -> & Hy).
  destruct (Ho x y Hx Hy) as [E T]. rewrite Hc. split; [intros H; now rewrite (E H)|].
  intros c Hc'. destruct (Hg c Hc') as (z & -> & Hz). rewrite !Hc. apply (T z Hz).
Qed.

Section Lex.
  Context {A I : Type} (cmp : A -> A -> comparison).

  Fixpoint lex_cmp (xs ys : list A) : comparison :=
    match xs, ys with
    | [], [] => Eq
    | [], _ :: _ => Lt
    | _ :: _, [] => Gt
    | x :: xr, y :: yr => match cmp x y with Eq => lex_cmp xr yr | c => c end
    end.

  Lemma lex_antisym xs : Forall (fun x => forall y, cmp x y = CompOpp (cmp y x)) xs ->
    forall ys, lex_cmp xs ys = CompOpp (lex_cmp ys xs).
  Proof.
    induction 1 as [|x xr Hx _ IH]; intros [|y yr]; try reflexivity.
    cbn [lex_cmp]. rewrite (Hx y). destruct (cmp y x); cbn [CompOpp]; auto.
  Qed.

  (** The lists whose elements lie, position by position, in [P i], [P (next i)], ... *)
  Context (P : I -> A -> Prop) (next : I -> I).
  Fixpoint along (i : I) (xs : list A) : Prop :=
    match xs with [] => True | x :: xr => P i x /\ along (next i) xr end.

  Lemma lex_ord (ok : I -> Prop) :
    (forall i, ok i -> ok (next i) /\ ord_on (P i) cmp) ->
    forall i, ok i -> ord_on (along i) lex_cmp.
  Proof.
    intros H i Hi xs. revert i Hi. induction xs as [|x xr IH]; intros i Hi [|y yr] Hx Hy.
    1-3: split; [intros E; try discriminate E; reflexivity
                |intros [|z zr] _ H1 H2; try discriminate H1; try discriminate H2; reflexivity].
    destruct (H i Hi) as [Hn Ho], Hx as [Hx Hxr], Hy as [Hy Hyr].
    destruct (IH _ Hn yr Hxr Hyr) as [E T], (Ho x y Hx Hy) as [Exy Txy]. cbn [lex_cmp]. split.
    - destruct (cmp x y); try discriminate. intros He. now rewrite (Exy eq_refl), (E He).
    - intros [|z zr] Hz H1 H2; [destruct (cmp x y); discriminate|]. destruct Hz as [Hz Hzr].
      destruct (Ho y z Hy Hz) as [Eyz _]. cbn [lex_cmp] in *.
      destruct (cmp x y) eqn:E1; try discriminate H1; destruct (cmp y z) eqn:E2; try discriminate H2.
      + rewrite (Exy eq_refl), E2. now apply (T zr).
      + now rewrite (Exy eq_refl), E2.
      + now rewrite <- (Eyz eq_refl), E1.
      + now rewrite (Txy z Hz eq_refl E2).
  Qed.
End Lex.

Lemma lex_ord_all {A} (cmp : A -> A -> comparison) (Q : A -> Prop) :
  ord_on Q cmp -> ord_on (Forall Q) (lex_cmp cmp).
Proof.
  intros H. apply (ord_on_map (fun xs => xs) (along (fun _ : unit => Q) (fun i => i) tt) (lex_cmp cmp)); [|reflexivity|].
  - intros xs Hx. exists xs. split; [reflexivity|]. induction Hx; cbn [along]; auto.
  - now apply (lex_ord cmp _ _ (fun _ => True)).
Qed.

Lemma val_cmp_VList xs ys : val_cmp (VList xs) (VList ys) = lex_cmp val_cmp xs ys.
Proof.
  reflexivity.
Qed.

Lemma val_cmp_VCont xs ys : val_cmp (VCont xs) (VCont ys) = lex_cmp val_cmp xs ys.
Proof.
  reflexivity.
Qed.

Section ValInd.
  Variable P : val -> Prop.
  Hypothesis HUint : forall n, P (VUint n).
  Hypothesis HBool : forall b, P (VBool b).
  Hypothesis HBytes : forall bs, P (VBytes bs).
  Hypothesis HList : forall vs, Forall P vs -> P (VList vs).
  Hypothesis HNone : P VNone.
  Hypothesis HSome : forall v, P v -> P (VSome v).
  Hypothesis HCont : forall vs, Forall P vs -> P (VCont vs).
  Hypothesis HUnion : forall i v, P v -> P (VUnion i v).
  Hypothesis HTag : forall i, P (VTag i).
  Hypothesis HBits : forall bits, P (VBits bits).

  Fixpoint val_ind' (v : val) : P v :=
    let fix all (l : list val) : Forall P l :=
      match l with
      | [] => Forall_nil P
      | x :: r => Forall_cons x (val_ind' x) (all r)
      end in
    match v with
    | VUint n => HUint n
    | VBool b => HBool b
    | VBytes bs => HBytes bs
    | VList vs => HList vs (all vs)
    | VNone => HNone
    | VSome v => HSome v (val_ind' v)
    | VCont vs => HCont vs (all vs)
    | VUnion i v => HUnion i v (val_ind' v)
    | VTag i => HTag i
    | VBits bits => HBits bits
    end.
End ValInd.

Lemma val_cmp_antisym a b : val_cmp a b = CompOpp (val_cmp b a).
Proof.
  revert b. induction a as [n|x|bs|vs IH| |v IH|vs IH|i v IH|i|bits] using val_ind';
    intros b; destruct b; try reflexivity.
  - cbn [val_cmp]. apply N.compare_antisym.
  - cbn [val_cmp]. destruct x, b; reflexivity.
  - apply (lex_antisym N.compare), Forall_forall. intros x _ y. apply N.compare_antisym.
  - rewrite !val_cmp_VList. now apply lex_antisym.
  - cbn [val_cmp]. apply IH.
  - rewrite !val_cmp_VCont. now apply lex_antisym.
  - cbn [val_cmp]. apply Nat.compare_antisym.
Qed.

Lemma val_cmp_refl_all a : val_cmp a a = Eq.
Proof.
  pose proof (val_cmp_antisym a a) as H.
  destruct (val_cmp a a); cbn [CompOpp] in H; try discriminate H; reflexivity.
Qed.

Lemma val_cmp_lt_gt a b : val_cmp a b = Lt -> val_cmp b a = Gt.
Proof. intros H. rewrite val_cmp_antisym, H. reflexivity. Qed.

Lemma val_cmp_gt_lt a b : val_cmp a b = Gt -> val_cmp b a = Lt.
Proof. intros H. rewrite val_cmp_antisym, H. reflexivity. Qed.

Definition ord_at (t : ty) : Prop := key_type t = true -> ord_on (fun v => has_ty t v = true) val_cmp.

Lemma ord_N : ord_on (fun _ => True) N.compare.
Proof.
  intros a b _ _. split; [apply N.compare_eq|]. intros c _. rewrite !N.compare_lt_iff. lia.
Qed.

(** [bytes_cmp] is [lex_cmp N.compare]. *)
Lemma ord_bytes : ord_on (Forall (fun _ => True)) bytes_cmp.
Proof. exact (lex_ord_all _ _ ord_N). Qed.

(** The [j]-th component of a container value lies in the type at the head of the [j]-th tail of [fs]. *)
Lemma ord_fields fs : Forall ord_at fs -> forallb key_type fs = true ->
  ord_on (fun xs => has_ty_fields fs xs = true) (lex_cmp val_cmp).
Proof.
  intros HF Hk.
  pose (P := fun (fs : list ty) v => match fs with f :: _ => has_ty f v = true | [] => False end).
  apply (ord_on_map (fun xs => xs) (along P (@tl ty) fs) (lex_cmp val_cmp)); [|reflexivity|].
  - intros xs Hx%has_ty_fields_Forall2. exists xs. split; [reflexivity|]. clear HF Hk.
    induction Hx as [|f x gs xs Hf _ IH]; [exact I|exact (conj Hf IH)].
  - apply (lex_ord val_cmp P (@tl ty) (fun fs => Forall ord_at fs /\ forallb key_type fs = true)); [|now split].
    intros [|g gs] [Hf Hg]; [split; [now split|intros ? ? []]|].
    cbn [forallb tl] in *. apply andb_prop in Hg as [Hg Hgs]. inversion Hf; subst. split; [now split|auto].
Qed.

Lemma val_cmp_ord t : ord_at t.
Proof.
  induction t using ty_ind'; intros Hk; try discriminate Hk.
  - (* TUint *) apply (ord_on_map VUint _ _ _ _) with (3 := ord_N); [|reflexivity].
    intros [] Ha; try discriminate Ha; eauto.
  - (* TBool *) intros a b Ha Hb. destruct a; try discriminate Ha; destruct b; try discriminate Hb. split.
    + now destruct b0, b.
    + intros [] Hc; try discriminate Hc. now destruct b0, b, b1.
  - (* TNonZero *) apply (ord_on_map VUint _ _ _ _) with (3 := ord_N); [|reflexivity].
    intros [] Ha; try discriminate Ha; eauto.
  - (* TBytesN *) apply (ord_on_map VBytes _ _ _ _) with (3 := ord_bytes); [|reflexivity].
    intros [] Ha; try discriminate Ha. eexists. split; [reflexivity|]. apply Forall_forall. now intros.
  - (* TByteList *) apply (ord_on_map VBytes _ _ _ _) with (3 := ord_bytes); [|reflexivity].
    intros [] Ha; try discriminate Ha. eexists. split; [reflexivity|]. apply Forall_forall. now intros.
  - (* TList *) apply (ord_on_map VList _ _ _ _) with (3 := lex_ord_all _ _ (IHt Hk)); [|reflexivity].
    intros [] Ha; try discriminate Ha. eexists. split; [reflexivity|]. apply Forall_forall, forallb_forall, Ha.
  - (* TOption *) cbn [key_type] in Hk. intros a b Ha Hb.
    destruct a; try discriminate Ha; destruct b; try discriminate Hb; cbn [has_ty val_cmp] in *.
    + split; [reflexivity|discriminate].
    + split; [discriminate|]. now intros [].
    + split; discriminate.
    + destruct (IHt Hk _ _ Ha Hb) as [E T]. split; [intros H; now rewrite (E H)|].
      intros [] Hc; try discriminate. apply (T _ Hc).
  - (* TContainer *) rewrite key_type_container in Hk.
    apply (ord_on_map VCont _ _ _ _) with (3 := ord_fields fs H Hk); [|reflexivity].
    intros [] Ha; try discriminate Ha. rewrite has_ty_container in Ha. eauto.
  - (* TTag *) apply (ord_on_map VTag (fun _ => True) Nat.compare); [|reflexivity|].
    + intros [] Ha; try discriminate Ha; eauto.
    + intros a b _ _. split; [apply Nat.compare_eq|]. intros c _. rewrite !Nat.compare_lt_iff. lia.
  - (* TWrap *) apply (ord_on_map (fun v => v) _ _ _ _) with (3 := IHt Hk); [|reflexivity].
    intros v Hv. rewrite has_ty_wrap in Hv. eauto.
Qed.

Lemma val_cmp_eq t a b : key_type t = true -> has_ty t a = true -> has_ty t b = true ->
  val_cmp a b = Eq -> a = b.
Proof. intros Hk Ha Hb. apply (val_cmp_ord t Hk a b Ha Hb). Qed.

Lemma val_cmp_refl t a : key_type t = true -> has_ty t a = true -> val_cmp a a = Eq.
Proof. intros _ _. apply val_cmp_refl_all. Qed.

Lemma val_cmp_trans t a b c : key_type t = true ->
  has_ty t a = true -> has_ty t b = true -> has_ty t c = true ->
  val_cmp a b = Lt -> val_cmp b c = Lt -> val_cmp a c = Lt.
Proof. intros Hk Ha Hb Hc. now apply (val_cmp_ord t Hk a b Ha Hb). Qed.

Definition keys_typed (kt : ty) (is_map : bool) (l : list val) : Prop :=
  Forall (fun e => has_ty kt (entry_key is_map e) = true) l.

Definition hd_lt (m : bool) (x : val) (l : list val) : Prop :=
  match l with
  | [] => True
  | y :: _ => val_cmp (entry_key m x) (entry_key m y) = Lt
  end.

Lemma ss_cons m x l :
  strictly_sorted m (x :: l) = true <-> hd_lt m x l /\ strictly_sorted m l = true.
Proof.
  destruct l as [|y r].
  - cbn. tauto.
  - cbn [strictly_sorted hd_lt]. unfold val_ltb. rewrite andb_true_iff.
    destruct (val_cmp (entry_key m x) (entry_key m y)); split; intros [H1 H2];
      try discriminate H1; auto.
Qed.

Lemma insert_in m e l x : In x (insert_entry m e l) -> x = e \/ In x l.
Proof.
  induction l as [|y r IH]; cbn [insert_entry]; intros H.
  - destruct H as [H|[]]. now left.
  - destruct (val_cmp (entry_key m e) (entry_key m y)).
    + destruct H as [H|H]; [now left|right; now right].
    + destruct H as [H|H]; [now left|now right].
    + destruct H as [H|H]; [right; now left|].
      destruct (IH H) as [G|G]; [now left|right; now right].
Qed.

Lemma insert_in_self m e l : In e (insert_entry m e l).
Proof.
  induction l as [|y r IH]; cbn [insert_entry].
  - now left.
  - destruct (val_cmp (entry_key m e) (entry_key m y)); try (now left). now right.
Qed.

Lemma insert_in_keep m e l x :
  In x l -> val_cmp (entry_key m e) (entry_key m x) <> Eq -> In x (insert_entry m e l).
Proof.
  induction l as [|y r IH]; intros Hin Hne; [destruct Hin|].
  cbn [insert_entry]. destruct (val_cmp (entry_key m e) (entry_key m y)) eqn:E.
  - destruct Hin as [Hin|Hin]; [subst y; contradiction|now right].
  - now right.
  - destruct Hin as [Hin|Hin]; [now left|right; now apply IH].
Qed.

Lemma fold_insert_inv m (P : list val -> Prop) l :
  (forall e acc, In e l -> P acc -> P (insert_entry m e acc)) ->
  forall acc, P acc -> P (fold_left (fun acc e => insert_entry m e acc) l acc).
Proof.
  induction l as [|x r IH]; intros Hs acc Hacc; cbn [fold_left]; [exact Hacc|].
  apply IH; [intros e a He; apply Hs; now right|]. apply Hs; [now left|exact Hacc].
Qed.

Theorem collect_incl is_map l e : In e (collect_entries is_map l) -> In e l.
Proof.
  revert e. unfold collect_entries.
  apply (fold_insert_inv is_map (fun acc => forall e, In e acc -> In e l)); [|intros e []].
  intros x acc Hx Hacc e He. destruct (insert_in _ _ _ _ He) as [->|G]; auto.
Qed.

Lemma insert_keys_typed kt m e l :
  has_ty kt (entry_key m e) = true -> keys_typed kt m l -> keys_typed kt m (insert_entry m e l).
Proof.
  unfold keys_typed. intros He Hl. rewrite Forall_forall in *. intros x Hx.
  destruct (insert_in _ _ _ _ Hx) as [G|G]; [now subst|now apply Hl].
Qed.

Theorem collect_keys_typed kt is_map l :
  keys_typed kt is_map l -> keys_typed kt is_map (collect_entries is_map l).
Proof.
  intros H. unfold collect_entries. apply (fold_insert_inv is_map (keys_typed kt is_map)); [|constructor].
  intros e acc He. apply insert_keys_typed. unfold keys_typed in H. rewrite Forall_forall in H. now apply H.
Qed.

Lemma hd_lt_insert m z e l :
  hd_lt m z l -> val_cmp (entry_key m z) (entry_key m e) = Lt -> hd_lt m z (insert_entry m e l).
Proof.
  destruct l as [|y r]; cbn [insert_entry hd_lt]; intros H1 H2; [exact H2|].
  destruct (val_cmp (entry_key m e) (entry_key m y)); cbn [hd_lt]; auto.
Qed.

Lemma insert_sorted kt m e l : key_type kt = true ->
  has_ty kt (entry_key m e) = true -> keys_typed kt m l ->
  strictly_sorted m l = true -> strictly_sorted m (insert_entry m e l) = true.
Proof.
  intros Hk He. induction l as [|x r IH]; intros Hl Hs; [reflexivity|].
  inversion Hl as [|? ? Hx Hr]; subst.
  apply ss_cons in Hs as [Hh Hs].
  cbn [insert_entry]. destruct (val_cmp (entry_key m e) (entry_key m x)) eqn:E.
  - apply (val_cmp_eq kt _ _ Hk He Hx) in E.
    apply ss_cons. split; [|exact Hs].
    destruct r as [|y r']; cbn [hd_lt] in *; [exact I|]. rewrite E. exact Hh.
  - apply ss_cons. split; [exact E|]. apply ss_cons. now split.
  - apply ss_cons. split.
    + apply hd_lt_insert; [exact Hh|]. now apply val_cmp_gt_lt.
    + now apply IH.
Qed.

Theorem collect_is_sorted kt is_map l : key_type kt = true -> keys_typed kt is_map l ->
  strictly_sorted is_map (collect_entries is_map l) = true.
Proof.
  intros Hk Hl. unfold keys_typed in Hl. rewrite Forall_forall in Hl. unfold collect_entries.
  apply (fold_insert_inv is_map (fun acc => keys_typed kt is_map acc /\ strictly_sorted is_map acc = true));
    [|split; [constructor|reflexivity]].
  intros e acc He [Ht Hs]. split; [apply insert_keys_typed|apply (insert_sorted kt)]; auto.
Qed.

Lemma sorted_hd_lt_all kt m l : key_type kt = true -> forall x,
  keys_typed kt m (x :: l) -> strictly_sorted m (x :: l) = true ->
  forall y, In y l -> val_cmp (entry_key m x) (entry_key m y) = Lt.
Proof.
  intros Hk. induction l as [|z r IH]; intros x Ht Hs y Hy; [destruct Hy|].
  apply ss_cons in Hs as [Hxz Hs]. inversion Ht as [|? ? Hx Ht']; subst.
  destruct Hy as [<-|Hy]; [exact Hxz|]. inversion Ht' as [|? ? Hz Ht'']; subst.
  unfold keys_typed in Ht''. rewrite Forall_forall in Ht''.
  exact (val_cmp_trans kt _ _ _ Hk Hx Hz (Ht'' y Hy) Hxz (IH z Ht' Hs y Hy)).
Qed.

Lemma sorted_app_lt kt m acc e r : key_type kt = true ->
  keys_typed kt m (acc ++ e :: r) -> strictly_sorted m (acc ++ e :: r) = true ->
  forall x, In x acc -> val_cmp (entry_key m x) (entry_key m e) = Lt.
Proof.
  intros Hk. induction acc as [|a acc IH]; cbn [app]; intros Ht Hs x Hx; [destruct Hx|].
  destruct Hx as [<-|Hx].
  - apply (sorted_hd_lt_all kt m _ Hk a Ht Hs). apply in_or_app. right. now left.
  - apply IH; [now inversion Ht|now apply ss_cons in Hs|exact Hx].
Qed.

Lemma insert_at_end m e acc :
  (forall x, In x acc -> val_cmp (entry_key m x) (entry_key m e) = Lt) ->
  insert_entry m e acc = acc ++ [e].
Proof.
  induction acc as [|a r IH]; intros H; [reflexivity|].
  cbn [insert_entry app]. rewrite (val_cmp_lt_gt _ _ (H a (or_introl eq_refl))).
  f_equal. apply IH. intros x Hx. apply H. now right.
Qed.

Lemma fold_insert_sorted_id kt m l : key_type kt = true -> forall acc,
  keys_typed kt m (acc ++ l) -> strictly_sorted m (acc ++ l) = true ->
  fold_left (fun acc e => insert_entry m e acc) l acc = acc ++ l.
Proof.
  intros Hk. induction l as [|e r IH]; intros acc Ht Hs; cbn [fold_left].
  - now rewrite app_nil_r.
  - rewrite (insert_at_end m e acc) by (apply (sorted_app_lt kt m acc e r Hk Ht Hs)).
    assert (E : (acc ++ [e]) ++ r = acc ++ e :: r) by (now rewrite <- app_assoc).
    rewrite IH; rewrite E; auto.
Qed.

Theorem collect_sorted kt is_map l : key_type kt = true -> keys_typed kt is_map l ->
  strictly_sorted is_map l = true -> collect_entries is_map l = l.
Proof.
  intros Hk Ht Hs. unfold collect_entries.
  now rewrite (fold_insert_sorted_id kt is_map l Hk []).
Qed.

Theorem collect_later_wins kt is_map l1 e l2 : key_type kt = true -> keys_typed kt is_map (l1 ++ e :: l2) ->
  (forall e', In e' l2 -> val_cmp (entry_key is_map e') (entry_key is_map e) <> Eq) ->
  In e (collect_entries is_map (l1 ++ e :: l2)).
Proof.
  intros _ _ Hne. unfold collect_entries. rewrite fold_left_app. cbn [fold_left].
  apply (fold_insert_inv is_map (In e)); [|apply insert_in_self].
  intros x acc Hx Hacc. apply insert_in_keep; auto.
Qed.

Theorem collect_idem kt is_map l : key_type kt = true -> keys_typed kt is_map l ->
  collect_entries is_map (collect_entries is_map l) = collect_entries is_map l.
Proof.
  intros Hk Ht. apply (collect_sorted kt); [exact Hk| |].
  - now apply collect_keys_typed.
  - now apply (collect_is_sorted kt).
Qed.

Lemma insert_in_iff kt m e l x : key_type kt = true ->
  has_ty kt (entry_key m e) = true -> keys_typed kt m l -> strictly_sorted m l = true ->
  (In x (insert_entry m e l) <->
   x = e \/ (In x l /\ val_cmp (entry_key m e) (entry_key m x) <> Eq)).
Proof.
  intros Hk He Ht Hs. split; [|intros [->|[Hin Hne]]; [apply insert_in_self|now apply insert_in_keep]].
  revert Ht Hs. induction l as [|y r IH]; intros Ht Hs; cbn [insert_entry].
  { intros [<-|[]]. now left. }
  pose proof (sorted_hd_lt_all kt m r Hk y Ht Hs) as Hlt. inversion Ht as [|? ? Hy Hr]; subst.
  unfold keys_typed in Hr. rewrite Forall_forall in Hr. apply ss_cons in Hs as [_ Hs].
  destruct (val_cmp (entry_key m e) (entry_key m y)) eqn:E.
  - (* [e] takes the place of [y]; the rest lies above both *)
    apply (val_cmp_eq kt _ _ Hk He Hy) in E.
    intros [<-|Hx]; [now left|]. right. split; [now right|]. rewrite E, (Hlt x Hx). discriminate.
  - intros [<-|Hx]; [now left|]. right. split; [exact Hx|]. destruct Hx as [<-|Hx]; [now rewrite E|].
    now rewrite (val_cmp_trans kt _ _ _ Hk He Hy (Hr x Hx) E (Hlt x Hx)).
  - intros [<-|Hx]; [right; split; [now left|now rewrite E]|].
    destruct (IH (proj2 (Forall_forall _ _) Hr) Hs Hx) as [->|[Hin Hne]]; [now left|right; split; [now right|exact Hne]].
Qed.
